(* C15: the list-based heap operations preserve the multiset of elements whatever the comparator answers (even one
   that changes between calls), and the queue never loses or duplicates a message. *)
From Coq Require Import List Arith Bool Lia Permutation.
From RS Require Import Heap.HeapList.
Import ListNotations.

Section Perm.
Variable A : Type.
Variable d : A.
Notation upd := (HeapList.upd A).

Lemma upd_length l : forall i x, length (upd l i x) = length l.
Proof. induction l as [|h t IH]; intros [|i] x; cbn; auto. Qed.

Lemma upd_same l : forall i, i < length l -> upd l i (nth i l d) = l.
Proof. induction l as [|h t IH]; intros [|i] H; cbn in *; try lia; [reflexivity|]. f_equal. apply IH. lia. Qed.

Lemma nth_upd_other l : forall i j x, i <> j -> nth i (upd l j x) d = nth i l d.
Proof. induction l as [|h t IH]; intros [|i] [|j] x H; cbn; try reflexivity; try lia. apply IH. lia. Qed.

Lemma upd_perm_cons t : forall j x y, j < length t -> Permutation (x :: upd t j y) (y :: upd t j x).
Proof.
  induction t as [|h t IH]; intros [|j] x y H; cbn in *; try lia.
  - apply perm_swap.
  - eapply perm_trans; [apply perm_swap|]. eapply perm_trans; [apply perm_skip, IH; lia|]. apply perm_swap.
Qed.

Lemma perm_upd2 l : forall i j a b, i <> j -> i < length l -> j < length l ->
  Permutation (upd (upd l i a) j b) (upd (upd l i b) j a).
Proof.
  induction l as [|h t IH]; intros [|i] [|j] a b Hne Hi Hj; cbn in *; try lia.
  - apply upd_perm_cons. lia.
  - apply upd_perm_cons. lia.
  - apply perm_skip, IH; lia.
Qed.

(* one step of either loop: the element at [p] moves into the hole [i], the hole moves to [p] *)
Lemma upd_move l i p e : p <> i -> i < length l -> p < length l ->
  Permutation (upd (upd l i (nth p l d)) p e) (upd l i e).
Proof.
  intros Hpi Hi Hp. rewrite <- (upd_same (upd l i e) p) at 1 by (rewrite upd_length; exact Hp).
  rewrite (nth_upd_other l p i e Hpi). apply perm_upd2; auto.
Qed.

Variable cmp : A -> A -> bool.

Lemma sift_up_perm fuel : forall l i e, i < length l -> Permutation (sift_up A d cmp fuel l i e) (upd l i e).
Proof.
  induction fuel as [|f IH]; intros l i e Hi; cbn [sift_up]; [reflexivity|].
  destruct (Nat.ltb_spec 0 i) as [Hpos|]; cbn [andb]; [|reflexivity].
  destruct (cmp e (nth ((i - 1) / 2) l d)); [|reflexivity].
  set (p := (i - 1) / 2). assert (Hp : p < i) by (unfold p; apply Nat.div_lt_upper_bound; lia).
  eapply perm_trans; [apply IH; rewrite upd_length; lia|apply upd_move; lia].
Qed.

Lemma upd_app_last l e x : upd (l ++ [e]) (length l) x = l ++ [x].
Proof. induction l as [|h t IH]; cbn; [reflexivity|]. f_equal. exact IH. Qed.

Theorem heap_insert_perm l e : Permutation (heap_insert A d cmp l e) (e :: l).
Proof.
  unfold heap_insert. eapply perm_trans; [apply sift_up_perm; rewrite app_length; cbn; lia|].
  rewrite upd_app_last. apply Permutation_sym, Permutation_cons_append.
Qed.

Lemma sift_down_perm fuel : forall l cnt i j last, j < i -> cnt <= length l -> j < length l ->
  Permutation (sift_down A d cmp fuel l cnt i j last) (upd l j last).
Proof.
  induction fuel as [|f IH]; intros l cnt i j last Hji Hc Hj; cbn [sift_down]; [reflexivity|].
  destruct (Nat.ltb_spec i cnt) as [Hi|]; [|reflexivity].
  set (i' := if Nat.ltb (i + 1) cnt && cmp (nth (i + 1) l d) (nth i l d) then i + 1 else i).
  assert (Hi' : i <= i' /\ i' < cnt).
  { unfold i'. destruct (Nat.ltb_spec (i + 1) cnt); cbn [andb]; [destruct (cmp _ _)|]; lia. }
  destruct (cmp (nth i' l d) last); [|reflexivity].
  eapply perm_trans; [apply IH; rewrite ?upd_length; lia|apply upd_move; lia].
Qed.

Theorem heap_extract_perm l r l' : heap_extract A d cmp l = Some (r, l') -> Permutation (r :: l') l.
Proof.
  unfold heap_extract. destruct l as [|x t]; [discriminate|]. intros E. injection E as <- <-.
  destruct t as [|y t'].
  - cbn. reflexivity.
  - assert (Hne : y :: t' <> []) by discriminate.
    pose proof (app_removelast_last d Hne) as El.
    change (last (x :: y :: t') d) with (last (y :: t') d).
    change (removelast (x :: y :: t')) with (x :: removelast (y :: t')).
    set (rl := removelast (y :: t')) in *. set (la := last (y :: t') d) in *.
    eapply perm_trans; [apply perm_skip, sift_down_perm; cbn; lia|]. cbn [HeapList.upd].
    rewrite El. apply perm_skip. apply Permutation_cons_append.
Qed.
End Perm.

(* ghost accounting of everything pushed and everything extracted *)
Inductive qop := Push (m : qmsg) | Flag (id : nat) | Extract | Peek.

Record ghost := mkG { g_state : qstate; g_pushed : list qmsg; g_extracted : list qmsg; g_peeks : list (option nat) }.

Definition g_step (g : ghost) (o : qop) : ghost :=
  match o with
  | Push m => mkG (q_push (g_state g) m) (m :: g_pushed g) (g_extracted g) (g_peeks g)
  | Flag id => mkG (q_flag (g_state g) id) (g_pushed g) (g_extracted g) (g_peeks g)
  | Extract => let '(r, s') := q_extract (g_state g) in
               mkG s' (g_pushed g) (match r with Some m => m :: g_extracted g | None => g_extracted g end) (g_peeks g)
  | Peek => let '(r, s') := q_peek (g_state g) in mkG s' (g_pushed g) (g_extracted g) (r :: g_peeks g)
  end.

Definition g_init : ghost := mkG q_init [] [] [].
Definition contents (s : qstate) : list qmsg := q_shared s ++ q_heap s.
Definition accounted (g : ghost) : Prop := Permutation (g_pushed g) (contents (g_state g) ++ g_extracted g).

Lemma transfer_perm s : Permutation (q_heap (q_transfer s)) (q_shared s ++ q_heap s).
Proof.
  unfold q_transfer. cbn [q_heap]. generalize (q_heap s). induction (q_shared s) as [|m l IH]; intros h; cbn; [reflexivity|].
  eapply perm_trans; [apply IH|].
  eapply perm_trans; [apply Permutation_app_head, heap_insert_perm|]. apply Permutation_sym, Permutation_middle.
Qed.

Theorem step_accounted g o : accounted g -> accounted (g_step g o).
Proof.
  unfold accounted, contents. intros H. destruct o as [m|id| |]; cbn [g_step].
  - cbn. apply perm_skip. exact H.
  - exact H.
  - unfold q_extract. pose proof (transfer_perm (g_state g)) as Ht.
    destruct (heap_extract qmsg qm_dummy (cmp_now (q_transfer (g_state g))) (q_heap (q_transfer (g_state g)))) as [[m h']|] eqn:E; cbn.
    + pose proof (heap_extract_perm _ _ _ _ _ _ E) as Hp.
      eapply perm_trans; [exact H|]. eapply perm_trans; [apply Permutation_app_tail, Permutation_sym, Ht|].
      eapply perm_trans; [apply Permutation_app_tail, Permutation_sym, Hp|]. cbn. apply Permutation_middle.
    + eapply perm_trans; [exact H|]. apply Permutation_app_tail, Permutation_sym, Ht.
  - unfold q_peek. cbn. eapply perm_trans; [exact H|]. apply Permutation_app_tail, Permutation_sym, transfer_perm.
Qed.

Lemma run_accounted ops : forall g, accounted g -> accounted (fold_left g_step ops g).
Proof. induction ops as [|o l IH]; intros g H; cbn; [exact H|]. apply IH, step_accounted, H. Qed.

(* every message pushed by any producer is, after any sequence of operations, either still in the queue or has been
   extracted — exactly once (as multisets): nothing is lost, nothing is duplicated *)
Theorem no_loss_no_dup ops : accounted (fold_left g_step ops g_init).
Proof. apply run_accounted. unfold accounted, contents. cbn. reflexivity. Qed.

(* after an extraction or a peek the shared list has been emptied into the heap: everything pushed before the
   exchange is in the heap (or was extracted) when the answer is computed *)
Theorem transfer_takes_everything s : q_shared (q_transfer s) = [] /\ Permutation (q_heap (q_transfer s)) (q_shared s ++ q_heap s).
Proof. split; [reflexivity|apply transfer_perm]. Qed.
