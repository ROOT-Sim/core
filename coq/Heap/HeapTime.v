(* The array heap of heap.h under a comparator that may CHANGE between operations (the queue comparator reads the live
   ANTI bit of queued messages): whatever the comparator does on ties, as long as every comparator used agrees with a fixed
   key (here the timestamp) -- "a before b" implies key a <= key b, and key a < key b implies "a before b" -- the array stays
   a heap for the key, so the root always carries a minimal key.  This is what msg_queue_time_peek relies on for the GVT. *)
From Coq Require Import List Arith NArith Bool Lia.
From RS Require Import Heap.HeapList Heap.HeapListProofs.
From RS Require Heap.HeapFun.
Import ListNotations.

Definition key_le {A} (key : A -> N) (a b : A) : Prop := (key a <= key b)%N.

Section TimeHeap.
Variable A : Type.
Variable d : A.
Variable key : A -> N.
Notation upd := (HeapList.upd A).

Definition compat (cmp : A -> A -> bool) : Prop :=
  (forall a b, cmp a b = true -> (key a <= key b)%N) /\ (forall a b, (key a < key b)%N -> cmp a b = true).

Definition theap (l : list A) : Prop :=
  forall k, 0 < k < length l -> (key (nth ((k - 1) / 2) l d) <= key (nth k l d))%N.

(* [theap l] is [heap_upto (arr l) (length l)]: the hole argument of Heap/HeapFun.v applies to the list read as a function *)
Local Notation par := HeapFun.par.
Local Notation kle := (key_le key).
Local Notation arr l := (fun k => nth k l d).
Local Notation heap_upto l n := (HeapFun.heap_upto A kle (arr l) n).
Local Notation hole l n i := (HeapFun.hole A kle (arr l) n i).

Lemma kle_refl a : kle a a.
Proof. apply N.le_refl. Qed.
Lemma kle_trans a b c : kle a b -> kle b c -> kle a c.
Proof. apply N.le_trans. Qed.

Lemma compat_ge cmp : compat cmp -> forall a b, cmp a b = false -> kle b a.
Proof.
  intros [_ R2] a b E. destruct (N.le_gt_cases (key b) (key a)) as [H|H]; [exact H|]. rewrite (R2 _ _ H) in E. discriminate.
Qed.

Lemma nth_upd_same l : forall i x, i < length l -> nth i (upd l i x) d = x.
Proof. induction l as [|h t IH]; intros [|i] x H; cbn in *; try lia; [reflexivity|]. apply IH. lia. Qed.

Lemma put_upd l i x : i < length l -> HeapFun.put A (arr l) i x (arr (upd l i x)).
Proof. intros H. split; [apply nth_upd_same, H|intros k; apply nth_upd_other]. Qed.

Lemma sift_up_theap cmp (Hc : compat cmp) fuel : forall l i e, i <= fuel -> i < length l -> hole l (length l) i ->
  (forall k, 0 < k < length l -> par k = i -> kle e (nth k l d)) -> theap (sift_up A d cmp fuel l i e).
Proof.
  induction fuel as [|f IH]; intros l i e Hf Hi H Hk; cbn [sift_up];
    assert (Stop : (0 < i -> kle (nth (par i) l d) e) -> theap (upd l i e))
      by (intros Hp k; rewrite upd_length; exact (HeapFun.hole_fill A kle _ _ i e _ H (put_upd l i e Hi) Hp Hk k)).
  - apply Stop. lia.
  - fold (par i). destruct (Nat.ltb_spec 0 i) as [Hpos|Hpos]; cbn [andb]; [|apply Stop; lia].
    destruct (cmp e (nth (par i) l d)) eqn:Ec; [|apply Stop; intros _; exact (compat_ge cmp Hc _ _ Ec)].
    pose proof (put_upd l i (nth (par i) l d) Hi) as Hput. pose proof (HeapFun.par_lt i Hpos).
    apply IH; rewrite ?upd_length; [lia|lia|exact (HeapFun.hole_up A kle kle_refl kle_trans _ _ i _ H Hpos Hput)|].
    exact (HeapFun.kids_up A kle kle_trans _ _ i e _ H Hpos Hput (proj1 Hc _ _ Ec)).
Qed.

Theorem heap_insert_theap cmp l e : compat cmp -> theap l -> theap (heap_insert A d cmp l e).
Proof.
  intros Hc Hh. unfold heap_insert. assert (Hlen : length (l ++ [e]) = S (length l)) by (rewrite app_length, Nat.add_1_r; reflexivity).
  apply sift_up_theap; rewrite ?Hlen; [exact Hc|lia|lia| |].
  - apply HeapFun.hole_last. apply (HeapFun.heap_upto_ext A kle (arr l)); [|exact Hh]. intros k Hk. apply app_nth1, Hk.
  - intros k Hk Hp. pose proof (HeapFun.par_lt k). lia.
Qed.

Lemma sift_down_theap cmp (Hc : compat cmp) fuel : forall l cnt j last,
  cnt <= fuel + j -> j < length l -> cnt <= length l -> hole l cnt j -> (0 < j -> kle (nth (par j) l d) last) ->
  heap_upto (sift_down A d cmp fuel l cnt (2 * j + 1) j last) cnt.
Proof.
  induction fuel as [|f IH]; intros l cnt j last Hf Hj Hlen H Hb; cbn [sift_down];
    pose proof (HeapFun.hole_fill A kle _ cnt j last _ H (put_upd l j last Hj) Hb) as Stop.
  - apply Stop. intros k Hk Hp. pose proof (HeapFun.par_lt k). lia.
  - destruct (Nat.ltb_spec (2 * j + 1) cnt) as [Hl|Hl].
    2:{ apply Stop. intros k Hk Hp. destruct (HeapFun.par_inv k j (proj1 Hk) Hp); lia. }
    destruct (HeapFun.min_child A kle kle_refl cmp (proj1 Hc) (compat_ge cmp Hc) (arr l) cnt j _ Hl eq_refl) as (Hp & Hlt & Hmin).
    set (c := if _ && _ then _ else _) in *. destruct (cmp (nth c l d) last) eqn:Ec.
    + rewrite (Nat.mul_comm c 2).
      apply IH; rewrite ?upd_length; [lia|lia|exact Hlen| |].
      * exact (HeapFun.hole_down A kle kle_trans _ cnt j c _ H Hp ltac:(lia) Hmin (put_upd l j _ Hj)).
      * intros _. rewrite Hp, nth_upd_same by exact Hj. exact (proj1 Hc _ _ Ec).
    + apply Stop. intros k Hk Hpk. exact (kle_trans _ _ _ (compat_ge cmp Hc _ _ Ec) (Hmin k Hk Hpk)).
Qed.

Lemma nth_removelast (l : list A) k : k < length l - 1 -> nth k (removelast l) d = nth k l d.
Proof.
  revert k. induction l as [|x l IH]; intros k H; [cbn in H; lia|].
  destruct l as [|y l]; [cbn in H; lia|]. destruct k as [|k]; [reflexivity|].
  change (removelast (x :: y :: l)) with (x :: removelast (y :: l)). cbn [nth]. apply IH. cbn in *. lia.
Qed.
Lemma removelast_length (l : list A) : length (removelast l) = length l - 1.
Proof.
  induction l as [|x l IH]; [reflexivity|]. destruct l as [|y l]; [reflexivity|].
  change (removelast (x :: y :: l)) with (x :: removelast (y :: l)). cbn [length] in *. lia.
Qed.

Theorem heap_extract_theap cmp l r l' : compat cmp -> theap l -> heap_extract A d cmp l = Some (r, l') -> theap l'.
Proof.
  intros Hc Hh H. unfold heap_extract in H. destruct l as [|x l0] eqn:El; [discriminate|]. rewrite <- El in *.
  injection H as _ <-. pose proof (removelast_length l) as Hlen.
  destruct (removelast l) as [|y rl] eqn:Er; [intros k Hk; cbn in Hk; lia|]. rewrite <- Er in *.
  assert (Hne : 0 < length (removelast l)) by (rewrite Er; cbn; lia).
  intros k. rewrite (Permutation.Permutation_length (sift_down_perm A d cmp _ _ _ 1 0 (last l d) Nat.lt_0_1 (le_n _) Hne)), upd_length.
  apply (sift_down_theap cmp Hc _ _ _ 0); [lia|exact Hne|lia| |lia].
  apply (HeapFun.hole_of_heap A kle kle_trans). apply (HeapFun.heap_upto_ext A kle (arr l)); [intros i Hi; apply nth_removelast; lia|].
  intros i Hi. apply Hh. lia.
Qed.

Theorem theap_root_min l : theap l -> forall k, k < length l -> (key (nth 0 l d) <= key (nth k l d))%N.
Proof. exact (HeapFun.root_min A kle kle_refl kle_trans (arr l) (length l)). Qed.

End TimeHeap.
