(* The array heap of datatypes/heap.h with the array as a function from indices: insertion (sift-up), extraction
   (sift-down) and minimality of the root, for a strict weak order.  Both loops carry a hole through the tree; what that
   takes is proved first, for any transitive relation the comparator decides, and serves the list model of
   Heap/HeapTime.v as well. *)
From Coq Require Import Arith Lia Bool.

Definition par (i : nat) : nat := (i - 1) / 2.

Lemma par_lt i : 0 < i -> par i < i.
Proof. intros H. unfold par. apply Nat.div_lt_upper_bound; lia. Qed.
Lemma par_child_l j : par (2 * j + 1) = j.
Proof. unfold par. replace (2 * j + 1 - 1) with (j * 2) by lia. apply Nat.div_mul. lia. Qed.
Lemma par_child_r j : par (2 * j + 1 + 1) = j.
Proof. unfold par. replace (2 * j + 1 + 1 - 1) with (1 + j * 2) by lia. rewrite Nat.div_add by lia. reflexivity. Qed.
Lemma par_inv k j : 0 < k -> par k = j -> k = 2 * j + 1 \/ k = 2 * j + 1 + 1.
Proof. unfold par. intros Hk E. pose proof (Nat.div_mod (k - 1) 2). pose proof (Nat.mod_upper_bound (k - 1) 2). lia. Qed.

Section Hole.
Variable A : Type.
Variable le : A -> A -> Prop.
Hypothesis le_refl : forall a, le a a.
Hypothesis le_trans : forall a b c, le a b -> le b c -> le a c.
Variable cmp : A -> A -> bool.
Hypothesis cmp_le : forall a b, cmp a b = true -> le a b.
Hypothesis cmp_ge : forall a b, cmp a b = false -> le b a.
Implicit Types f g : nat -> A.

Definition heap_upto f n : Prop := forall k, 0 < k < n -> le (f (par k)) (f k).

Lemma heap_upto_ext f g n : (forall k, k < n -> g k = f k) -> heap_upto f n -> heap_upto g n.
Proof. intros E H k Hk. pose proof (par_lt k). rewrite !E by lia. apply H, Hk. Qed.

Lemma root_min f n : heap_upto f n -> forall k, k < n -> le (f 0) (f k).
Proof.
  intros H k. induction k as [k IH] using lt_wf_ind. intros Hk.
  destruct (Nat.eq_dec k 0) as [->|Hk0]; [apply le_refl|].
  pose proof (par_lt k). apply le_trans with (f (par k)); [apply IH|apply H]; lia.
Qed.

Definition put f i x g : Prop := g i = x /\ forall k, k <> i -> g k = f k.

(* what is left of [f] is a heap once position [i] is taken out and its children hang from its parent *)
Record hole f n i : Prop := {
  h_edge : forall k, 0 < k < n -> k <> i -> par k <> i -> le (f (par k)) (f k);
  h_skip : forall k, 0 < k < n -> par k = i -> 0 < i -> le (f (par i)) (f k)
}.

Lemma hole_of_heap f n i : heap_upto f n -> hole f n i.
Proof.
  intros H. split; [intros k Hk _ _; apply H, Hk|]. intros k Hk Hp Hi. pose proof (par_lt k).
  apply le_trans with (f i); [apply H; lia|rewrite <- Hp; apply H, Hk].
Qed.

Lemma hole_last f n : heap_upto f n -> hole f (S n) n.
Proof. intros H. split; [intros k Hk Hkn _; apply H; lia|intros k Hk Hp; pose proof (par_lt k); lia]. Qed.

(* the loops stop: [x] goes into the hole *)
Lemma hole_fill f n i x g : hole f n i -> put f i x g ->
  (0 < i -> le (f (par i)) x) -> (forall k, 0 < k < n -> par k = i -> le x (f k)) -> heap_upto g n.
Proof.
  intros [He _] [Ei Eo] Hp Hc k Hk. destruct (Nat.eq_dec k i) as [->|Hki].
  - pose proof (par_lt i). rewrite Ei, Eo by lia. apply Hp. lia.
  - rewrite (Eo k Hki). destruct (Nat.eq_dec (par k) i) as [E|E].
    + rewrite E, Ei. apply Hc; assumption.
    + rewrite (Eo _ E). apply He; assumption.
Qed.

(* sift-up moves the parent down into the hole: with the parent twice the array is a heap *)
Lemma hole_up f n i g : hole f n i -> 0 < i -> put f i (f (par i)) g -> hole g n (par i).
Proof.
  intros H Hi Hput. apply hole_of_heap, (hole_fill f n i (f (par i)) g H Hput); [intros _; apply le_refl|].
  intros k Hk Hp. exact (h_skip f n i H k Hk Hp Hi).
Qed.

Lemma kids_up f n i e g : hole f n i -> 0 < i -> put f i (f (par i)) g -> le e (f (par i)) ->
  forall k, 0 < k < n -> par k = par i -> le e (g k).
Proof.
  intros [He _] Hi [Ei Eo] Hle k Hk Hpk. destruct (Nat.eq_dec k i) as [->|Hki]; [rewrite Ei; exact Hle|].
  pose proof (par_lt i Hi). rewrite (Eo k Hki). apply (le_trans _ _ _ Hle). rewrite <- Hpk. apply He; lia.
Qed.

(* sift-down moves a least child [c] up into the hole: likewise *)
Lemma hole_down f n i c g : hole f n i -> par c = i -> 0 < c < n ->
  (forall k, 0 < k < n -> par k = i -> le (f c) (f k)) -> put f i (f c) g -> hole g n c.
Proof.
  intros H Hc Hcn Hmin Hput. exact (hole_of_heap g n c (hole_fill f n i (f c) g H Hput (h_skip f n i H c Hcn Hc) Hmin)).
Qed.

(* the child both sift-down loops choose *)
Lemma min_child f n j c : 2 * j + 1 < n ->
  c = (if (2 * j + 1 + 1 <? n) && cmp (f (2 * j + 1 + 1)) (f (2 * j + 1)) then 2 * j + 1 + 1 else 2 * j + 1) ->
  par c = j /\ j < c < n /\ forall k, 0 < k < n -> par k = j -> le (f c) (f k).
Proof.
  intros Hl ->. set (i := 2 * j + 1) in *.
  assert (Hkids : forall k, 0 < k < n -> par k = j -> k = i \/ k = i + 1 /\ i + 1 < n).
  { intros k Hk Hp. destruct (par_inv k j (proj1 Hk) Hp); [left; assumption|right; fold i in H; lia]. }
  destruct (Nat.ltb_spec (i + 1) n) as [Hr|Hr]; cbn [andb]; [destruct (cmp (f (i + 1)) (f i)) eqn:E|].
  - split; [apply par_child_r|]. split; [unfold i; lia|]. intros k Hk Hp.
    destruct (Hkids k Hk Hp) as [->|[-> _]]; [apply cmp_le, E|apply le_refl].
  - split; [apply par_child_l|]. split; [unfold i; lia|]. intros k Hk Hp.
    destruct (Hkids k Hk Hp) as [->|[-> _]]; [apply le_refl|apply cmp_ge, E].
  - split; [apply par_child_l|]. split; [unfold i; lia|]. intros k Hk Hp.
    destruct (Hkids k Hk Hp) as [->|[-> ?]]; [apply le_refl|lia].
Qed.
End Hole.

Definition nbefore {A} (cmp : A -> A -> bool) (a b : A) : Prop := cmp b a = false.

Section Heap.
Variable A : Type.
Variable cmp : A -> A -> bool.            (* "is before" *)
Hypothesis cmp_irrefl : forall a, cmp a a = false.
Hypothesis cmp_trans : forall a b c, cmp a b = true -> cmp b c = true -> cmp a c = true.
Hypothesis cmp_negtrans : forall a b c, cmp a b = false -> cmp b c = false -> cmp a c = false.

Definition arr := nat -> A.
Definition upd (f : arr) (i : nat) (x : A) : arr := fun k => if Nat.eqb k i then x else f k.

Definition heap_ok (f : arr) (n : nat) : Prop := forall k, 0 < k < n -> cmp (f k) (f (par k)) = false.

(* the loop of heap_insert: i is the hole, e the element being inserted *)
Fixpoint sift_up (fuel : nat) (f : arr) (i : nat) (e : A) : arr :=
  match fuel with
  | 0 => upd f i e
  | S fuel' =>
      if (0 <? i) && cmp e (f (par i)) then sift_up fuel' (upd f i (f (par i))) (par i) e else upd f i e
  end.

Definition heap_insert (f : arr) (n : nat) (e : A) : arr := sift_up n f n e.

Lemma cmp_asym a b : cmp a b = true -> cmp b a = false.
Proof. intros H. destruct (cmp b a) eqn:E; auto. pose proof (cmp_trans _ _ _ H E) as H'. rewrite cmp_irrefl in H'. discriminate. Qed.

Lemma upd_same f i x : upd f i x i = x. Proof. unfold upd. rewrite Nat.eqb_refl. reflexivity. Qed.
Lemma upd_other f i x k : k <> i -> upd f i x k = f k.
Proof. intros H. unfold upd. destruct (Nat.eqb_spec k i); [contradiction|reflexivity]. Qed.

(* [heap_ok] is [heap_upto] for "not before" *)
Local Notation nb := (nbefore cmp).
Local Notation hole := (hole A nb).

Lemma nb_trans a b c : nb a b -> nb b c -> nb a c.
Proof. intros H1 H2. exact (cmp_negtrans c b a H2 H1). Qed.

Lemma put_upd f i x : put A f i x (upd f i x).
Proof. split; [apply upd_same|intros k; apply upd_other]. Qed.

Lemma sift_up_ok fuel : forall f n i e, i <= fuel -> hole f n i ->
  (forall k, 0 < k < n -> par k = i -> nb e (f k)) -> heap_ok (sift_up fuel f i e) n.
Proof.
  induction fuel as [|fuel IH]; intros f n i e Hfuel H Hk; cbn [sift_up];
    pose proof (fun Hp => hole_fill A nb f n i e _ H (put_upd f i e) Hp Hk) as Stop.
  - apply Stop. lia.
  - destruct (Nat.ltb_spec 0 i) as [Hi|Hi]; cbn [andb]; [|apply Stop; lia].
    destruct (cmp e (f (par i))) eqn:Ec; [|apply Stop; intros _; exact Ec].
    pose proof (put_upd f i (f (par i))) as Hput. pose proof (par_lt i Hi).
    apply IH; [lia|exact (hole_up A nb cmp_irrefl nb_trans f n i _ H Hi Hput)|].
    exact (kids_up A nb nb_trans f n i e _ H Hi Hput (cmp_asym _ _ Ec)).
Qed.

Theorem heap_insert_ok f n e : heap_ok f n -> heap_ok (heap_insert f n e) (S n).
Proof.
  intros H. unfold heap_insert. apply sift_up_ok; [lia|apply hole_last, H|].
  intros k Hk Epk. pose proof (par_lt k). lia.
Qed.

Definition pick (f : arr) (cnt i : nat) : nat := if (i + 1 <? cnt) && cmp (f (i + 1)) (f i) then i + 1 else i.

Fixpoint sift_down (fuel : nat) (f : arr) (cnt j : nat) (last : A) : arr :=
  match fuel with
  | 0 => upd f j last
  | S fuel' =>
      let i := 2 * j + 1 in
      if i <? cnt then
        let i' := pick f cnt i in
        if cmp (f i') last then sift_down fuel' (upd f j (f i')) cnt i' last else upd f j last
      else upd f j last
  end.

Definition heap_extract (f : arr) (n : nat) : A * arr := (f 0, sift_down n f (n - 1) 0 (f (n - 1))).

Lemma sift_down_S fuel f cnt j last :
  sift_down (S fuel) f cnt j last =
  if 2 * j + 1 <? cnt then
    if cmp (f (pick f cnt (2 * j + 1))) last then sift_down fuel (upd f j (f (pick f cnt (2 * j + 1)))) cnt (pick f cnt (2 * j + 1)) last
    else upd f j last
  else upd f j last.
Proof. reflexivity. Qed.

Lemma sift_down_ok fuel : forall f cnt j last, cnt <= fuel + j -> hole f cnt j ->
  (0 < j -> nb (f (par j)) last) -> heap_ok (sift_down fuel f cnt j last) cnt.
Proof.
  induction fuel as [|fuel IH]; intros f cnt j last Hfuel H Hb;
    pose proof (hole_fill A nb f cnt j last _ H (put_upd f j last) Hb) as Stop.
  - apply Stop. intros k Hk Hp. pose proof (par_lt k). lia.
  - rewrite sift_down_S. destruct (Nat.ltb_spec (2 * j + 1) cnt) as [Hc|Hc].
    2:{ apply Stop. intros k Hk Hp. destruct (par_inv k j (proj1 Hk) Hp); lia. }
    destruct (min_child A nb cmp_irrefl cmp cmp_asym (fun a b E => E) f cnt j (pick f cnt (2 * j + 1)) Hc eq_refl) as (Hp & Hlt & Hmin).
    set (c := pick f cnt (2 * j + 1)) in *. destruct (cmp (f c) last) eqn:Ec.
    + apply IH; [lia|exact (hole_down A nb nb_trans f cnt j c _ H Hp ltac:(lia) Hmin (put_upd f j (f c)))|].
      intros _. rewrite Hp, upd_same. exact (cmp_asym _ _ Ec).
    + apply Stop. intros k Hk Hpk. exact (nb_trans _ _ _ Ec (Hmin k Hk Hpk)).
Qed.

Theorem heap_extract_ok f n : 0 < n -> heap_ok f n -> heap_ok (snd (heap_extract f n)) (n - 1).
Proof.
  intros Hn H. unfold heap_extract. cbn [snd]. apply sift_down_ok; [lia| |lia].
  apply (hole_of_heap A nb nb_trans). intros k Hk. apply H. lia.
Qed.

Theorem heap_root_min f n : heap_ok f n -> forall k, k < n -> cmp (f k) (f 0) = false.
Proof. exact (root_min A nb cmp_irrefl nb_trans f n). Qed.
End Heap.
