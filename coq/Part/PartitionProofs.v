From Coq Require Import NArith Bool Lia.
From RS Require Import Part.PartitionDefs.
Local Open Scope N_scope.

Lemma ceil_exact k c : 0 < c -> (k * c + c - 1) / c = k.
Proof. intros H. symmetry. apply N.div_unique with (c - 1); lia. Qed.

(* floor and ceiling of a quotient, by the inequalities that define them *)
Lemma div_le_iff a b q : 0 < b -> q <= a / b <-> b * q <= a.
Proof.
  intros Hb. split; intros H.
  - eapply N.le_trans; [apply N.mul_le_mono_l, H|apply N.mul_div_le; lia].
  - apply N.div_le_lower_bound; [lia|exact H].
Qed.

Lemma ceil_le_iff a b q : 0 < b -> (a + b - 1) / b <= q <-> a <= b * q.
Proof.
  intros Hb. rewrite <- N.lt_succ_r. split; intros H.
  - pose proof (N.mul_succ_div_gt (a + b - 1) b ltac:(lia)).
    apply N.le_succ_l, (N.mul_le_mono_l _ _ b) in H. lia.
  - apply N.div_lt_upper_bound; lia.
Qed.

Section Part.
Variables cnt tot : N.
Hypothesis cnt_pos : 0 < cnt.
Hypothesis tot_pos : 0 < tot.
Set Default Proof Using "cnt_pos tot_pos".

Definition f (l : N) : N := l * cnt / tot.

Notation first := (first cnt tot).

(* [first] (a ceiling) is the lower adjoint of [f] (a floor): both sides say id * tot <= g * cnt.
   Everything below about the two is read off this equivalence. *)
Lemma first_le_iff id g : first id <= g <-> id <= f g.
Proof. unfold PartitionDefs.first, f. rewrite ceil_le_iff, div_le_iff by assumption. lia. Qed.

Lemma f_lt_iff id g : f g < id <-> g < first id.
Proof. rewrite !N.lt_nge, first_le_iff. reflexivity. Qed.

Theorem routing_agrees l r : (first r <= l < first (r + 1)) <-> f l = r.
Proof. rewrite <- f_lt_iff, first_le_iff. lia. Qed.

Lemma first_mono_le a b : a <= b -> first a <= first b.
Proof. intros H. apply first_le_iff. etransitivity; [exact H|]. apply first_le_iff, N.le_refl. Qed.

Theorem first_mono r : first r <= first (r + 1).
Proof. apply first_mono_le. lia. Qed.

Theorem first_0 : first 0 = 0.
Proof. apply N.le_0_r, first_le_iff, N.le_0_l. Qed.

Theorem first_cnt : first cnt = tot.
Proof. unfold PartitionDefs.first. rewrite N.mul_comm. apply ceil_exact, cnt_pos. Qed.

(* when there are exactly as many partitions as indexes, each gets exactly one *)
Theorem first_diag r : cnt = tot -> first r = r.
Proof. intros <-. apply ceil_exact, cnt_pos. Qed.

Lemma first_le_tot r : r <= cnt -> first r <= tot.
Proof. intros H. apply N.le_trans with (first cnt); [apply first_mono_le, H|apply N.eq_le_incl, first_cnt]. Qed.

Theorem route_lt_cnt l : l < tot -> f l < cnt.
Proof. intros H. rewrite f_lt_iff, first_cnt. exact H. Qed.

Theorem no_idle_part r : cnt <= tot -> r < cnt -> first r < first (r + 1).
Proof.
  intros Hle _. apply f_lt_iff, N.div_lt_upper_bound; [lia|].
  pose proof (N.mul_div_le (r * tot + cnt - 1) cnt ltac:(lia)). unfold PartitionDefs.first. lia.
Qed.

(* the first guess of the macro *)
Lemma guess_close id : id * tot / cnt <= first id <= id * tot / cnt + 1.
Proof.
  unfold PartitionDefs.first. split.
  - apply N.div_le_mono; lia.
  - apply ceil_le_iff; [assumption|]. rewrite N.add_1_r. apply N.lt_le_incl, N.mul_succ_div_gt. lia.
Qed.

Variable start : N.

Lemma route_f g : route start cnt tot (start + g) = f g.
Proof. unfold route, f. rewrite N.add_comm, N.add_sub. reflexivity. Qed.

Lemma walk_up_spec id fuel : forall g, g <= first id -> first id - g <= N.of_nat fuel ->
  walk_up fuel start cnt tot id (start + g) = Some (start + first id).
Proof.
  induction fuel as [|k IH]; intros g Hg Hf; cbn [walk_up]; rewrite route_f;
    (destruct (N.ltb_spec (f g) id) as [H|H]; [apply f_lt_iff in H|apply first_le_iff in H; rewrite (N.le_antisymm _ _ Hg H); reflexivity]).
  - lia.
  - rewrite <- N.add_assoc. apply IH; lia.
Qed.

(* stops one below [first id], or at the bottom of the range *)
Lemma walk_down_spec id fuel : forall g, first id <= g + 1 -> g + 1 <= first id + N.of_nat fuel ->
  exists g', walk_down fuel start cnt tot id (start + g) = Some (start + g') /\
             g' <= first id /\ first id <= g' + 1.
Proof.
  (* below [first id] the loop stops at once, and [g] itself is the answer *)
  induction fuel as [|k IH]; intros g H1 H2; cbn [walk_down]; rewrite route_f;
    (destruct (N.leb_spec id (f g)) as [L|L];
      [apply first_le_iff in L
      |apply f_lt_iff, N.lt_le_incl in L; rewrite andb_false_r; exists g; split; [reflexivity|split; assumption]]);
    (destruct (N.ltb_spec start (start + g)); cbn [andb]; [|exists g; split; [reflexivity|lia]]).
  - lia.
  - replace (start + g - 1) with (start + (g - 1)) by lia. apply IH; lia.
Qed.

Theorem partition_start_spec id :
  partition_start id cnt start tot = Some (start + first id).
Proof.
  unfold partition_start. pose proof (guess_close id) as [G1 G2]. rewrite N.add_comm.
  destruct (walk_down_spec id loop_fuel (id * tot / cnt)) as (g' & E & D1 & D2);
    [exact G2 | unfold loop_fuel; lia |].
  rewrite E. apply walk_up_spec; [exact D1 | unfold loop_fuel; lia].
Qed.
End Part.
Set Default Proof Using "Type".

Section System.
Variables lps nodes threads : N.
Hypothesis lps_pos : 0 < lps.
Hypothesis nodes_pos : 0 < nodes.
Hypothesis threads_pos : 0 < threads.
Set Default Proof Using "lps_pos nodes_pos threads_pos".

Definition nfirst (nd : N) : N := first nodes lps nd.
Definition nlps (nd : N) : N := nfirst (nd + 1) - nfirst nd.
Definition nthreads (nd : N) : N := if nlps nd <? threads then nlps nd else threads.

Lemma nthreads_bounds nd : 0 < nlps nd -> 0 < nthreads nd <= nlps nd.
Proof. intros Hn. unfold nthreads. destruct (N.ltb_spec (nlps nd) threads); lia. Qed.

Lemma node_init_spec nd :
  node_init lps nodes threads nd = Some (nfirst nd, nlps nd, nthreads nd).
Proof.
  unfold node_init.
  rewrite !(partition_start_spec nodes lps nodes_pos lps_pos 0). rewrite !N.add_0_l. reflexivity.
Qed.

Lemma thread_init_spec nd rd : 0 < nlps nd ->
  thread_init (nfirst nd) (nlps nd) (nthreads nd) rd =
  Some (nfirst nd + first (nthreads nd) (nlps nd) rd, nfirst nd + first (nthreads nd) (nlps nd) (rd + 1)).
Proof.
  intros Hn. unfold thread_init. destruct (nthreads_bounds nd Hn) as [Ht _].
  rewrite !(partition_start_spec _ _ Ht Hn). reflexivity.
Qed.

Lemma nfirst_mono nd : nfirst nd <= nfirst (nd + 1).
Proof. apply first_mono; assumption. Qed.

(* node ranges: [nfirst nd, nfirst (nd+1)), from 0 to lps *)
Lemma node_cover : nfirst 0 = 0 /\ nfirst nodes = lps.
Proof. split; [apply first_0 | apply first_cnt]; assumption. Qed.

Lemma in_node_iff l nd : (nfirst nd <= l < nfirst (nd + 1)) <-> route 0 nodes lps l = nd.
Proof. unfold route. rewrite N.sub_0_r. apply (routing_agrees nodes lps nodes_pos lps_pos). Qed.

Lemma in_thread_iff l nd rd : 0 < nlps nd -> nfirst nd <= l ->
  (nfirst nd + first (nthreads nd) (nlps nd) rd <= l < nfirst nd + first (nthreads nd) (nlps nd) (rd + 1))
  <-> route (nfirst nd) (nthreads nd) (nlps nd) l = rd.
Proof.
  intros Hn Hl. destruct (nthreads_bounds nd Hn) as [Ht _].
  etransitivity; [|apply (routing_agrees _ _ Ht Hn)]. lia.
Qed.

(* a thread's range lies inside its node's *)
Lemma thread_in_node l nd rd : 0 < nlps nd -> rd < nthreads nd ->
  nfirst nd + first (nthreads nd) (nlps nd) rd <= l < nfirst nd + first (nthreads nd) (nlps nd) (rd + 1) ->
  nfirst nd <= l < nfirst (nd + 1).
Proof.
  intros Hn Hr. destruct (nthreads_bounds nd Hn) as [Ht _].
  pose proof (first_le_tot _ _ Ht Hn (rd + 1) ltac:(lia)) as H. unfold nlps in *. lia.
Qed.

(* Every LP has exactly one owner, and it is the one routing computes. *)
Theorem owner_unique l : l < lps ->
  exists nd rd,
    owner lps nodes threads l = Some (nd, rd) /\ nd < nodes /\ rd < nthreads nd /\
    forall nd' rd', nd' < nodes -> 0 < nlps nd' -> rd' < nthreads nd' ->
      ((exists a b, thread_init (nfirst nd') (nlps nd') (nthreads nd') rd' = Some (a, b) /\ a <= l < b)
       <-> (nd' = nd /\ rd' = rd)).
Proof.
  intros Hl.
  set (nd := route 0 nodes lps l).
  assert (Hin : nfirst nd <= l < nfirst (nd + 1)) by (apply in_node_iff; reflexivity).
  assert (Hr : l - nfirst nd < nlps nd) by (unfold nlps; lia).
  pose proof (N.le_lt_trans _ _ _ (N.le_0_l _) Hr) as Hnl.
  destruct (nthreads_bounds nd Hnl) as [Ht _].
  set (rd := route (nfirst nd) (nthreads nd) (nlps nd) l).
  exists nd, rd. split; [|split; [|split]].
  - unfold owner. fold nd. rewrite node_init_spec. reflexivity.
  - unfold nd, route. rewrite N.sub_0_r. apply route_lt_cnt; assumption.
  - unfold rd, route. apply route_lt_cnt; [exact Ht|exact Hnl|exact Hr].
  - intros nd' rd' _ Hnl' Hrd'. rewrite thread_init_spec by assumption. split.
    + intros (a & b & E & Hab). injection E as <- <-.
      pose proof (thread_in_node l nd' rd' Hnl' Hrd' Hab) as Hin'.
      assert (nd = nd') as <- by (apply in_node_iff, Hin').
      split; [reflexivity|]. symmetry. apply in_thread_iff; [assumption|apply Hin|exact Hab].
    + intros [-> ->]. eexists _, _. split; [reflexivity|].
      apply in_thread_iff; [assumption|apply Hin|reflexivity].
Qed.

(* contiguity inside a node: thread ranges run from the node's first LP to its last *)
Theorem thread_cover nd : 0 < nlps nd ->
  first (nthreads nd) (nlps nd) 0 = 0 /\ first (nthreads nd) (nlps nd) (nthreads nd) = nlps nd.
Proof.
  intros Hn. destruct (nthreads_bounds nd Hn) as [Ht _].
  split; [apply first_0 | apply first_cnt]; assumption.
Qed.

(* no thread is idle: the clamp makes "LPs >= threads" true on every node that hosts an LP *)
Theorem no_idle_thread nd rd : 0 < nlps nd -> rd < nthreads nd ->
  first (nthreads nd) (nlps nd) rd < first (nthreads nd) (nlps nd) (rd + 1).
Proof. intros Hn Hr. destruct (nthreads_bounds nd Hn) as [Ht Hle]. apply no_idle_part; assumption. Qed.

Theorem clamp_one_each nd rd : 0 < nlps nd -> nlps nd < threads ->
  nthreads nd = nlps nd /\ first (nthreads nd) (nlps nd) rd = rd.
Proof.
  intros Hn Hlt. apply N.ltb_lt in Hlt. unfold nthreads. rewrite Hlt.
  split; [reflexivity|]. exact (first_diag _ _ Hn Hn rd eq_refl).
Qed.
End System.
Set Default Proof Using "Type".

(* non-vacuity *)
Example ex_partition : owner 10 3 4 7 = Some (2, 0) /\ node_init 10 3 4 2 = Some (7, 3, 3)
  /\ thread_init 7 3 3 0 = Some (7, 8).
Proof. vm_compute. repeat split. Qed.
