(* The identification of remote messages (src/gvt/gvt.h: gvt_remote_msg_send / _receive and their anti-message twins):
   id word = nid * 2^14 + (rid + 1) * 4 + phase, sequence word = counter * 2 + phase.  Used by the receiver to match
   an anti-message with its message, and to tell remote messages from local ones by the value of the flag word. *)
From Coq Require Import ZArith Lia.
Local Open Scope Z_scope.

Definition id_word (nid rid ph : Z) : Z := nid * 16384 + (rid + 1) * 4 + ph.
Definition seq_word (cnt ph : Z) : Z := cnt * 2 + ph.
(* what the receiver keeps after gvt_remote_msg_receive: the two low bits cleared *)
Definition id_received (w : Z) : Z := w - w mod 4.

Definition wf_ids (nid rid ph : Z) : Prop := 0 <= nid /\ 0 <= rid < 4095 /\ 0 <= ph <= 1.

Theorem id_injective nid rid ph nid' rid' ph' : wf_ids nid rid ph -> wf_ids nid' rid' ph' ->
  id_word nid rid ph = id_word nid' rid' ph' -> nid = nid' /\ rid = rid' /\ ph = ph'.
Proof. unfold wf_ids, id_word. intros (H1 & H2 & H3) (H4 & H5 & H6) E. lia. Qed.

Theorem seq_injective cnt ph cnt' ph' : 0 <= ph <= 1 -> 0 <= ph' <= 1 -> seq_word cnt ph = seq_word cnt' ph' -> cnt = cnt' /\ ph = ph'.
Proof. unfold seq_word. lia. Qed.

(* a remote message is recognised by its flag word: once received it is at least 4 and its two low bits are clear, so the
   receiver's fetch-add(+PROCESSED) returns a value with the ANTI bit clear for a message, and a value > 3 with the ANTI
   bit set for an anti-message; local flag words never exceed 5 and are never 4 *)
Theorem received_id_ge4 nid rid ph : wf_ids nid rid ph ->
  4 <= id_received (id_word nid rid ph) /\ id_received (id_word nid rid ph) mod 4 = 0 /\
  id_received (id_word nid rid ph) = nid * 16384 + (rid + 1) * 4.
Proof.
  unfold wf_ids, id_word, id_received. intros (H1 & H2 & H3).
  assert (E : (nid * 16384 + (rid + 1) * 4 + ph) mod 4 = ph).
  { replace (nid * 16384 + (rid + 1) * 4 + ph) with (ph + (nid * 4096 + rid + 1) * 4) by lia.
    rewrite Z.mod_add by lia. apply Z.mod_small. lia. }
  rewrite E. repeat split; try lia.
  replace (nid * 16384 + (rid + 1) * 4 + ph - ph) with ((nid * 4096 + rid + 1) * 4) by lia. apply Z.mod_mul. lia.
Qed.

(* the matching key of an anti-message equals the key of its message and of no other message of the same destination *)
Theorem anti_matches_only_its_message nid rid ph cnt nid' rid' ph' cnt' :
  wf_ids nid rid ph -> wf_ids nid' rid' ph' ->
  id_received (id_word nid rid ph) = id_received (id_word nid' rid' ph') -> seq_word cnt ph = seq_word cnt' ph' ->
  nid = nid' /\ rid = rid' /\ cnt = cnt' /\ ph = ph'.
Proof.
  intros W W' E S. destruct (seq_injective cnt ph cnt' ph' (proj2 (proj2 W)) (proj2 (proj2 W')) S) as [-> ->].
  destruct (received_id_ge4 _ _ _ W) as (_ & _ & E1). destruct (received_id_ge4 _ _ _ W') as (_ & _ & E2).
  rewrite E1, E2 in E. unfold wf_ids in *. lia.
Qed.
