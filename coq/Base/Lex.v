(* Lexicographic order on lists of integers: a strict total order. *)
From Coq Require Import List ZArith Bool Lia.
Import ListNotations.
Local Open Scope Z_scope.

Fixpoint lexltb (a b : list Z) : bool :=
  match a, b with
  | [], [] => false
  | [], _ :: _ => true
  | _ :: _, [] => false
  | x :: a', y :: b' => if x <? y then true else if x =? y then lexltb a' b' else false
  end.

(* one step, in the form of a comparison function: decide on the heads unless they are equal *)
Lemma lexltb_cons x y a b : lexltb (x :: a) (y :: b) = if x =? y then lexltb a b else x <? y.
Proof. cbn. destruct (Z.ltb_spec x y), (Z.eqb_spec x y); try reflexivity; lia. Qed.

Lemma lexltb_irrefl a : lexltb a a = false.
Proof.
  induction a as [|x a IH]; cbn; [reflexivity|].
  rewrite Z.ltb_irrefl, Z.eqb_refl. exact IH.
Qed.

Lemma lexltb_trans a : forall b c, lexltb a b = true -> lexltb b c = true -> lexltb a c = true.
Proof.
  induction a as [|x a IH]; intros [|y b] [|z c]; cbn; try congruence.
  destruct (Z.ltb_spec x y) as [Hxy|Hxy].
  - intros _. destruct (Z.ltb_spec y z) as [Hyz|Hyz].
    + intros _. destruct (Z.ltb_spec x z); [reflexivity|lia].
    + destruct (Z.eqb_spec y z) as [->|]; [|congruence]. intros _.
      destruct (Z.ltb_spec x z); [reflexivity|lia].
  - destruct (Z.eqb_spec x y) as [->|]; [|congruence]. intros Hab.
    destruct (Z.ltb_spec y z) as [Hyz|Hyz]; [reflexivity|].
    destruct (Z.eqb_spec y z) as [->|]; [|congruence]. apply IH. exact Hab.
Qed.

Lemma lexltb_total a : forall b, lexltb a b = false -> lexltb b a = false -> a = b.
Proof.
  induction a as [|x a IH]; intros [|y b]; cbn; try congruence.
  destruct (Z.ltb_spec x y) as [Hxy|Hxy]; [congruence|].
  destruct (Z.ltb_spec y x) as [Hyx|Hyx]; [destruct (Z.eqb_spec x y); congruence|].
  assert (x = y) by lia. subst y. rewrite Z.eqb_refl. intros H1 H2. f_equal. apply IH; assumption.
Qed.

Lemma lexltb_asym a b : lexltb a b = true -> lexltb b a = false.
Proof.
  intros H. destruct (lexltb b a) eqn:E; [|reflexivity].
  pose proof (lexltb_trans _ _ _ H E) as Hc. rewrite lexltb_irrefl in Hc. discriminate.
Qed.

(* if a < c then a < b or b < c, whatever b is: by totality, b is c or c < b or b < c *)
Lemma lexltb_negtrans a b c : lexltb a b = false -> lexltb b c = false -> lexltb a c = false.
Proof.
  intros H1 H2. destruct (lexltb a c) eqn:E; [|reflexivity].
  destruct (lexltb c b) eqn:E2.
  - rewrite (lexltb_trans _ _ _ E E2) in H1. discriminate.
  - rewrite (lexltb_total b c H2 E2), E in H1. discriminate.
Qed.

(* incomparability is equality, hence transitive *)
Lemma lexltb_incomp_iff a b : (lexltb a b = false /\ lexltb b a = false) <-> a = b.
Proof.
  split.
  - intros [H1 H2]. apply lexltb_total; assumption.
  - intros ->. split; apply lexltb_irrefl.
Qed.

Lemma lexltb_app_eq p a b : lexltb (p ++ a) (p ++ b) = lexltb a b.
Proof. induction p as [|x p IH]; cbn; [reflexivity|]. rewrite Z.ltb_irrefl, Z.eqb_refl. exact IH. Qed.
