(* C18 (integer part): Random() is defined for every raw generator output and lies in [0,1). *)
From Coq Require Import NArith ZArith List Bool Lia.
From RS Require Import Rng.RngDefs.
Import ListNotations.
Local Open Scope N_scope.

Lemma lor_disjoint_add a e k : a < 2 ^ k -> N.lor a (e * 2 ^ k) = a + e * 2 ^ k.
Proof.
  intros Ha.
  assert (D : N.land a (e * 2 ^ k) = 0).
  { apply N.bits_inj_0. intros n. rewrite N.land_spec.
    destruct (N.lt_ge_cases n k) as [Hn|Hn].
    - rewrite N.mul_pow2_bits_low by assumption. apply andb_false_r.
    - rewrite <- (N.mod_small a (2 ^ k) Ha), N.mod_pow2_bits_high by assumption. reflexivity. }
  rewrite <- N.lxor_lor by assumption. symmetry. apply N.add_nocarry_lxor. assumption.
Qed.

(* the first shift of Random(): by its leading zeros, a nonzero word moves its leading one to bit 63 *)
Lemma normalised u : 0 < u -> u < W64 -> N.log2 u < 64 /\ 2 ^ 63 <= u * 2 ^ (63 - N.log2 u) < W64.
Proof.
  intros H0 Hu. assert (Hl : N.log2 u < 64) by (apply N.log2_lt_pow2; assumption).
  assert (E : N.log2 u + (63 - N.log2 u) = 63) by lia.
  destruct (N.log2_spec u H0) as [Hlo Hhi].
  set (l := N.log2 u) in *. split; [exact Hl|]. split.
  - replace (2 ^ 63) with (2 ^ l * 2 ^ (63 - l)) by (rewrite <- N.pow_add_r, E; reflexivity).
    apply N.mul_le_mono_r, Hlo.
  - replace W64 with (2 ^ N.succ l * 2 ^ (63 - l)).
    + apply N.mul_lt_mono_pos_r; [apply N.neq_0_lt_0, N.pow_nonzero; discriminate|exact Hhi].
    + rewrite <- N.pow_add_r, N.add_succ_l, E. reflexivity.
Qed.

Lemma u64_lt x : u64 x < W64.
Proof. apply N.mod_lt. discriminate. Qed.

(* the second shift, by one, drops that leading one *)
Lemma double_mod h x : h <= x < h * 2 -> (x * 2) mod (h * 2) = (x - h) * 2.
Proof.
  intros H. symmetry. apply N.mod_unique with 1; lia.
Qed.

Lemma u64_double x : 2 ^ 63 <= x < W64 -> u64 (x * 2) = (x - 2 ^ 63) * 2.
Proof. exact (double_mod (2 ^ 63) x). Qed.

(* the exact value: exponent field 959 + log2 u, mantissa = the bits of u below its leading one,
   left-aligned in 52 bits (truncated) *)
Definition mantissa (u : N) : N := (u * 2 ^ (63 - N.log2 u) - 2 ^ 63) * 2 / 2 ^ 12.

Lemma mantissa_lt u : 0 < u -> u < W64 -> mantissa u < 2 ^ 52.
Proof.
  intros H0 Hu. destruct (normalised u H0 Hu) as [_ H]. unfold mantissa.
  apply N.div_lt_upper_bound; [discriminate|]. rewrite <- (u64_double _ H). apply u64_lt.
Qed.

(* a mantissa below an exponent field: m + e * k < (e + 1) * k <= E * k *)
Lemma field_lt m e k E : m < k -> e < E -> m + e * k < E * k.
Proof. nia. Qed.

Theorem random_bits_spec u : u < W64 ->
  exists b, random_bits u = Some b /\ b < ONE_BITS /\
            (u = 0 -> b = 0) /\
            (0 < u -> b = mantissa u + (959 + N.log2 u) * 2 ^ 52 /\ mantissa u < 2 ^ 52).
Proof.
  intros Hu. unfold random_bits.
  destruct (N.eqb_spec u 0) as [->|Hnz].
  { exists 0. split; [reflexivity|]. split; [reflexivity|]. split; [reflexivity|discriminate]. }
  apply N.neq_0_lt_0 in Hnz as H0.
  pose proof (normalised u H0 Hu) as [Hl Hx]. pose proof (mantissa_lt u H0 Hu) as Hm.
  unfold clz64, shl64.
  rewrite N.add_sub.
  replace (1023 - (63 - N.log2 u + 1)) with (959 + N.log2 u) by (clear - Hl; lia).
  replace (63 - N.log2 u <? 64) with true by (symmetry; apply N.ltb_lt; clear; lia). change (1 <? 64) with true. cbv iota.
  rewrite !N.shiftl_mul_pow2, N.shiftr_div_pow2, N.pow_1_r.
  unfold u64 at 2. rewrite (N.mod_small _ _ (proj2 Hx)), (u64_double _ Hx).
  change (_ / 2 ^ 12) with (mantissa u). rewrite (lor_disjoint_add _ _ _ Hm).
  eexists. split; [reflexivity|]. split; [|split].
  - change ONE_BITS with (1023 * 2 ^ 52). apply field_lt; [exact Hm|clear - Hl; lia].
  - intros ->. discriminate H0.
  - intros _. split; [reflexivity|exact Hm].
Qed.

(* F1, kept as a regression witness: the unsplit shift of the original code is undefined for u = 1 *)
Example random_bits_unsplit_undefined : random_bits_unsplit 1 = None.
Proof. reflexivity. Qed.

Example random_bits_examples :
  map random_bits [0; 1; 2; 3; 18446744073709551615] =
  [Some 0; Some 4318952042648305664; Some 4323455642275676160; Some 4325707442089361408; Some 4607182418800017407].
Proof. reflexivity. Qed.

Definition rng_wf (s : rng) : Prop := s0 s < W64 /\ s1 s < W64 /\ s2 s < W64 /\ s3 s < W64.

(* bounds by a power of two in the form that commutes with the bitwise operations *)
Lemma lt_pow2_shiftr a n : a < 2 ^ n <-> N.shiftr a n = 0.
Proof. rewrite N.shiftr_div_pow2. symmetry. apply N.div_small_iff, N.pow_nonzero. discriminate. Qed.

Lemma lxor_lt64 a b : a < W64 -> b < W64 -> N.lxor a b < W64.
Proof. change W64 with (2 ^ 64). rewrite !lt_pow2_shiftr, N.shiftr_lxor. intros -> ->. reflexivity. Qed.

Lemma lor_lt64 a b : a < W64 -> b < W64 -> N.lor a b < W64.
Proof. change W64 with (2 ^ 64). rewrite !lt_pow2_shiftr, N.shiftr_lor. intros -> ->. reflexivity. Qed.

Lemma rotl64_lt x k : x < W64 -> rotl64 x k < W64.
Proof.
  intros Hx. apply lor_lt64; [apply u64_lt|]. change W64 with (2 ^ 64) in *. apply lt_pow2_shiftr in Hx.
  apply lt_pow2_shiftr. rewrite N.shiftr_shiftr, N.add_comm, <- N.shiftr_shiftr, Hx. apply N.shiftr_0_l.
Qed.

Theorem random_u64_wf s : rng_wf s -> fst (random_u64 s) < W64 /\ rng_wf (snd (random_u64 s)).
Proof.
  intros (H0 & H1 & H2 & H3). unfold random_u64, rng_wf. cbn [fst snd s0 s1 s2 s3].
  repeat split; auto using lxor_lt64, rotl64_lt, u64_lt.
Qed.

(* RandomRange: floor(Random() * n) < n, by integer reasoning on the binary64 product *)
(* round to nearest on the bits above s moves p up by at most half a unit of the kept part *)
Lemma round_half p s : 0 < s ->
  let q := p / 2 ^ s in let r := p mod 2 ^ s in let half := 2 ^ (s - 1) in
  (if (half <? r) || ((r =? half) && N.odd q) then q + 1 else q) * 2 ^ s <= p + half.
Proof.
  intros Hs q r half.
  assert (E : 2 ^ s = 2 * half).
  { unfold half. rewrite N.sub_1_r, <- N.pow_succ_r', N.succ_pred_pos by exact Hs. reflexivity. }
  pose proof (N.div_mod' p (2 ^ s)) as Hdm. fold q r in Hdm. rewrite E in *. clearbody q r half. clear - Hdm.
  destruct (N.ltb_spec half r); cbn [orb]; [lia|].
  destruct (N.eqb_spec r half); cbn [andb]; [destruct (N.odd q)|]; lia.
Qed.

Lemma round53_lt p n : 0 < n -> p < 2 ^ 53 * n -> round53 p < p + n.
Proof.
  intros Hn Hp. unfold round53.
  destruct (N.leb_spec (N.size p) 53) as [Hs|Hs]; [apply N.lt_add_pos_r, Hn|].
  assert (Hp0 : p <> 0) by (intros ->; discriminate).
  rewrite N.size_log2 in * by assumption.
  set (s := N.succ (N.log2 p) - 53) in *.
  rewrite N.shiftr_div_pow2, N.shiftl_mul_pow2.
  eapply N.le_lt_trans; [apply round_half; clear - Hs; lia|]. apply N.add_lt_mono_l.
  (* 2^52 * 2^s <= p < 2^53 * n *)
  pose proof (N.log2_spec p (proj1 (N.neq_0_lt_0 p) Hp0)) as [Hlo _].
  replace (N.log2 p) with (53 + (s - 1)) in Hlo by (clear - Hs; lia). rewrite N.pow_add_r in Hlo.
  apply (N.mul_lt_mono_pos_l (2 ^ 53)); [reflexivity|]. eapply N.le_lt_trans; [exact Hlo|exact Hp].
Qed.

Theorem floor_mul_lt b n : 0 < n -> b < ONE_BITS -> floor_mul b n < n.
Proof.
  intros Hn Hb. unfold floor_mul. destruct (N.eqb_spec b 0) as [->|Hb0]; [assumption|].
  rewrite !N.shiftr_div_pow2.
  assert (He : b / 2 ^ 52 < 1023) by (apply N.div_lt_upper_bound; [discriminate|exact Hb]).
  pose proof (N.mod_lt b (2 ^ 52) ltac:(discriminate)) as Hm.
  set (e := b / 2 ^ 52) in *. set (big := 2 ^ 52 + b mod 2 ^ 52).
  assert (Hbig : big < 2 ^ 53) by (change (2 ^ 53) with (2 ^ 52 + 2 ^ 52); apply N.add_lt_mono_l, Hm).
  (* round53 (big * n) < big * n + n <= 2^53 * n <= 2^(1075 - e) * n *)
  apply N.div_lt_upper_bound; [apply N.pow_nonzero; discriminate|].
  eapply N.lt_le_trans; [apply (round53_lt _ n Hn), N.mul_lt_mono_pos_r; [exact Hn|exact Hbig]|].
  rewrite <- N.mul_succ_l. apply N.mul_le_mono_r.
  etransitivity; [apply N.le_succ_l, Hbig|]. apply N.pow_le_mono_r; [discriminate|clear - He; lia].
Qed.

Local Open Scope Z_scope.

Theorem random_range_in_bounds b mn mx :
  (b < ONE_BITS)%N -> mn <= mx -> mn <= random_range b mn mx <= mx.
Proof.
  intros Hb Hmm. unfold random_range.
  pose proof (floor_mul_lt b (Z.to_N (mx - mn + 1)) ltac:(lia) Hb). lia.
Qed.

(* Holds of any two operands of the [lor]: the result of [mod] is what is bounded, so the hypotheses on the
   draws and on x are not used, and 0 <= mn only through mn <= mx. *)
Theorem random_range_nonuniform_in_bounds b1 b2 x mn mx :
  (b1 < ONE_BITS)%N -> (b2 < ONE_BITS)%N -> 0 <= x -> 0 <= mn <= mx ->
  mn <= random_range_nonuniform b1 b2 x mn mx <= mx.
Proof.
  intros _ _ _ Hmm. unfold random_range_nonuniform.
  pose proof (Z.mod_pos_bound (Z.lor (random_range b1 0 x) (random_range b2 mn mx)) (mx - mn + 1) ltac:(lia)).
  lia.
Qed.

(* every value Random() can return, fed to RandomRange, stays in range: composition with random_bits_spec *)
Corollary random_then_range u mn mx : (u < W64)%N -> mn <= mx ->
  exists b, random_bits u = Some b /\ mn <= random_range b mn mx <= mx.
Proof.
  intros Hu Hmm. destruct (random_bits_spec u Hu) as (b & E & Hb & _).
  exists b. split; [exact E|]. apply random_range_in_bounds; assumption.
Qed.
