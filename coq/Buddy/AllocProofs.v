(* C12 / C05 / C13: properties of the executable allocator model. *)
From Coq Require Import List Arith NArith Bool Lia.
From RS Require Import Buddy.BuddyTree Buddy.Alloc.
Import ListNotations.

Section Arena.
Variable B : nat.
Hypothesis Bpos : 0 < B.
Notation bt := BuddyTree.bt.
Notation val := BuddyTree.val.
Notation mk_full := (BuddyTree.mk_full B).
Notation wf := (BuddyTree.wf B).
Notation bm := (BuddyTree.bm B).
Notation bfree := (Alloc.bfree B).
Notation comb := (Alloc.comb B).

Lemma bfree_full h : forall o, bfree h (mk_full h) o = None.
Proof.
  induction h as [|h IH]; intros o; cbn -[Nat.ltb Nat.pow Nat.eqb].
  - destruct (Nat.eqb_spec B 0); [lia|reflexivity].
  - rewrite !IH. destruct (Nat.ltb o (2 ^ h)); destruct (Nat.eqb_spec (B + S h) 0); try lia; reflexivity.
Qed.

Lemma comb_restore h l r v : wf (S h) (Nd v l r) -> v <> 0 -> comb h (val l) (val r) = v.
Proof.
  intros Hwf Hv. unfold Alloc.comb. destruct (BuddyTree.wf_node B h v l r Hwf Hv) as (Hl & Hr & [(-> & -> & ->)|[-> Hnf]]).
  - rewrite BuddyTree.val_full, !Nat.eqb_refl. reflexivity.
  - destruct (Nat.eqb_spec (val l) (B + h)) as [El|El]; cbn [andb]; [|reflexivity].
    destruct (Nat.eqb_spec (val r) (B + h)) as [Er|Er]; [|reflexivity].
    exfalso. apply Hnf. split; apply (BuddyTree.val_top_full B Bpos); assumption.
Qed.

(* free undoes malloc exactly: the tree before the allocation comes back *)
Theorem bfree_bm_inverse : forall h t e t' o, wf h t -> B <= e -> bm h t e = Some (t', o) -> bfree h t' o = Some (t, e).
Proof.
  induction h as [|h IH]; intros [v|v l r] e t' o Hwf HB Hbm; try (cbn in Hwf; tauto); cbn -[Nat.ltb Nat.leb Nat.pow Nat.eqb] in Hbm.
  - destruct (Nat.leb_spec e v); [|discriminate]. injection Hbm as <- <-.
    assert (v = B /\ e = B) as [-> ->] by (cbn in Hwf; lia). reflexivity.
  - destruct (Nat.ltb_spec v e); [discriminate|].
    pose proof (BuddyTree.val_range B Bpos (S h) (Nd v l r) Hwf) as Hr. cbn in Hr.
    assert (Hv0 : v <> 0) by lia. pose proof (comb_restore h l r v Hwf Hv0) as Hcomb.
    destruct (Nat.eqb_spec e (B + S h)) as [->|Hne].
    + injection Hbm as <- <-.
      assert (Et : Nd v l r = mk_full (S h)) by (apply (BuddyTree.val_top_full B Bpos); [exact Hwf|cbn; lia]).
      injection Et as -> -> ->. cbn -[Nat.ltb Nat.pow Nat.eqb]. rewrite !bfree_full.
      destruct (Nat.ltb 0 (2 ^ h)); reflexivity.
    + destruct (BuddyTree.wf_node B h v l r Hwf Hv0) as (Hwl & Hwr & _).
      destruct (Nat.leb_spec e (val l)) as [Hel|Hel].
      * destruct (bm h l e) as [[l' o1]|] eqn:Eb; [|discriminate]. injection Hbm as <- <-.
        pose proof (BuddyTree.bm_offset B Bpos h l e l' o1 Hwl HB Hel Eb) as Hlt.
        cbn -[Nat.ltb Nat.pow Nat.eqb]. destruct (Nat.ltb_spec o1 (2 ^ h)); [|lia].
        rewrite (IH l e l' o1 Hwl HB Eb), Hcomb. reflexivity.
      * destruct (bm h r e) as [[r' o1]|] eqn:Eb; [|discriminate]. injection Hbm as <- <-.
        cbn -[Nat.ltb Nat.pow Nat.eqb]. destruct (Nat.ltb_spec (2 ^ h + o1) (2 ^ h)); [lia|].
        rewrite Nat.add_comm, Nat.add_sub, (IH r e r' o1 Hwr HB Eb), Hcomb. reflexivity.
Qed.
End Arena.

Lemma write_cells_length cells : forall o len tag, length (write_cells cells o len tag) = length cells.
Proof. induction cells as [|c r IH]; intros [|o] [|len] tag; cbn; auto. Qed.

Lemma copy_cells_length dst : forall src o len, length (copy_cells dst src o len) = length dst.
Proof. induction dst as [|d r IH]; intros [|s sr] [|o] [|len]; cbn; auto. Qed.

(* in every case of copy_cells both sides compute to the same, the range test included *)
Lemma copy_cells_nth dst : forall src o len k, length src = length dst ->
  nth k (copy_cells dst src o len) 0%N = if inr o len k then nth k src 0%N else nth k dst 0%N.
Proof.
  induction dst as [|d r IH]; intros [|s sr] o len k Hl; try discriminate.
  - cbn. destruct k, (inr o len _); reflexivity.
  - injection Hl as Hl. destruct o, len, k; cbn [copy_cells nth]; try reflexivity; exact (IH sr _ _ _ Hl).
Qed.

Lemma write_cells_copy cells : forall o len tag, write_cells cells o len tag = copy_cells cells (repeat tag (length cells)) o len.
Proof. induction cells as [|c r IH]; intros [|o] [|len] tag; cbn; f_equal; auto. Qed.

Lemma write_cells_nth cells o len tag k :
  nth k (write_cells cells o len tag) 0%N = if inr o len k && Nat.ltb k (length cells) then tag else nth k cells 0%N.
Proof.
  rewrite write_cells_copy, copy_cells_nth, nth_repeat_ltb by apply repeat_length.
  destruct (inr o len k), (Nat.ltb_spec k (length cells)); cbn [andb]; try reflexivity. symmetry. apply nth_overflow. assumption.
Qed.

Theorem write_other_blocks_untouched cells o len tag k : ~ (o <= k < o + len) ->
  nth k (write_cells cells o len tag) 0%N = nth k cells 0%N.
Proof. intros H. rewrite write_cells_nth. destruct (inr_spec o len k); [contradiction|reflexivity]. Qed.

Lemma fold_copy_nth (blocks : list (nat * nat)) src : forall dst k, length src = length dst ->
  nth k (fold_left (fun cells b => copy_cells cells src (fst b) (snd b)) blocks dst) 0%N =
  if existsb (fun b => inr (fst b) (snd b) k) blocks then nth k src 0%N else nth k dst 0%N.
Proof.
  induction blocks as [|b bs IH]; intros dst k Hl; cbn [fold_left existsb]; [reflexivity|].
  rewrite IH by (rewrite copy_cells_length; exact Hl). rewrite copy_cells_nth by exact Hl.
  destruct (inr (fst b) (snd b) k), (existsb _ bs); reflexivity.
Qed.

(* C05 at the arena level: whatever happened to the arena since the checkpoint (allocations, frees, writes),
   restoring gives back the checkpointed tree and the checkpointed content of every block allocated in it *)
Theorem arena_restore_take B H (a a' : arena) : length (a_cells a') = length (a_cells a) ->
  let r := arena_restore B H a' (arena_take a) in
  a_tree r = a_tree a /\
  forall o len k, In (o, len) (visit B H (a_tree a) 0) -> o <= k < o + len -> nth k (a_cells r) 0%N = nth k (a_cells a) 0%N.
Proof.
  intros Hl. cbn. split; [reflexivity|]. intros o len k Hin Hk.
  rewrite fold_copy_nth by (symmetry; exact Hl).
  assert (E : existsb (fun b => inr (fst b) (snd b) k) (visit B H (a_tree a) 0) = true).
  { apply existsb_exists. exists (o, len). split; [exact Hin|]. cbn [fst snd]. destruct (inr_spec o len k); [reflexivity|contradiction]. }
  rewrite E. reflexivity.
Qed.

(* the scan runs from the oldest log to the newest, so the newest decides first *)
Lemma newest_le_snoc logs : forall g ref i best,
  newest_le (logs ++ [g]) ref i best = if (g_ref g <=? ref)%N then Some (i + length logs) else newest_le logs ref i best.
Proof.
  induction logs as [|x l IH]; intros g ref i best; cbn [app newest_le length].
  - rewrite Nat.add_0_r. reflexivity.
  - rewrite IH, Nat.add_succ_r. reflexivity.
Qed.

(* the scan as restore and fossil collection start it *)
Lemma newest_le_0 logs ref :
  match newest_le logs ref 0 None with
  | None => forall g, In g logs -> (ref < g_ref g)%N
  | Some i => exists g, nth_error logs i = Some g /\ (g_ref g <= ref)%N /\
                forall k g', i < k -> nth_error logs k = Some g' -> (ref < g_ref g')%N
  end.
Proof.
  induction logs as [|x logs IH] using rev_ind; [intros g []|]. rewrite newest_le_snoc.
  assert (Hlast : forall k g', length logs <= k -> nth_error (logs ++ [x]) k = Some g' -> k = length logs /\ g' = x).
  { intros k g' Hk Hn. rewrite nth_error_app2 in Hn by exact Hk.
    destruct (k - length logs) as [|[|j]] eqn:E; cbn in Hn; [injection Hn as <-; split; [lia|reflexivity]|discriminate..]. }
  destruct (N.leb_spec (g_ref x) ref) as [Hx|Hx].
  - exists x. split; [rewrite nth_error_app2, Nat.sub_diag by lia; reflexivity|]. split; [exact Hx|].
    intros k g' Hk Hn. destruct (Hlast k g' ltac:(lia) Hn). lia.
  - destruct (newest_le logs ref 0 None) as [i|].
    + destruct IH as (g & Hn & Hle & Hlater). assert (Hi : i < length logs) by (apply nth_error_Some; congruence).
      exists g. split; [rewrite nth_error_app1 by exact Hi; exact Hn|]. split; [exact Hle|].
      intros k g' Hk Hn'. destruct (Nat.lt_ge_cases k (length logs)) as [Hlt|Hge].
      * rewrite nth_error_app1 in Hn' by exact Hlt. exact (Hlater k g' Hk Hn').
      * destruct (Hlast k g' Hge Hn') as [_ ->]. exact Hx.
    + intros g Hg. apply in_app_or in Hg. destruct Hg as [Hg|[<-|[]]]; [exact (IH g Hg)|exact Hx].
Qed.

(* the reference returned by a restore is that of the newest checkpoint not after the requested index, every later
   checkpoint is dropped, every earlier one kept *)
Theorem restore_picks_newest B H AHDR s ref s' r : checkpoint_restore B H AHDR s ref = Some (s', r) ->
  exists i g, nth_error (m_logs s) i = Some g /\ r = g_ref g /\ (g_ref g <= ref)%N /\
    (forall k g', i < k -> nth_error (m_logs s) k = Some g' -> (ref < g_ref g')%N) /\
    m_logs s' = firstn (S i) (m_logs s).
Proof.
  unfold checkpoint_restore. pose proof (newest_le_0 (m_logs s) ref) as Hs.
  destruct (newest_le (m_logs s) ref 0 None) as [i|]; [|discriminate]. destruct Hs as (g & Hn & Hle & Hlater).
  rewrite Hn. intros E. injection E as <- <-. exists i, g. cbn. auto.
Qed.

Lemma skipn_nth_error {A} (l : list A) : forall i g, nth_error l i = Some g -> exists rest, skipn i l = g :: rest.
Proof. induction l as [|x l IH]; intros [|i] g Hn; cbn in *; try discriminate; [injection Hn as ->; eauto|apply IH, Hn]. Qed.

(* C13: fossil collection keeps the checkpoint its scan picks, whose reference is not after the target (that it is the
   newest such is [newest_le_0], not repeated here), and every checkpoint after it, re-based so that the kept log starts
   at reference 0; arenas and size are untouched *)
Theorem fossil_keeps_base s tgt s' base : fossil_collect s tgt = Some (s', base) ->
  exists i g, nth_error (m_logs s) i = Some g /\ base = g_ref g /\ (g_ref g <= tgt)%N /\
    m_logs s' = map (fun x => mkLog (g_ref x - base) (g_size x) (g_arenas x)) (skipn i (m_logs s)) /\
    (exists g0 rest, m_logs s' = g0 :: rest /\ g_ref g0 = 0%N) /\
    m_arenas s' = m_arenas s /\ m_size s' = m_size s.
Proof.
  unfold fossil_collect. pose proof (newest_le_0 (m_logs s) tgt) as Hs.
  destruct (newest_le (m_logs s) tgt 0 None) as [i|]; [|discriminate]. destruct Hs as (g & Hn & Hle & _).
  rewrite Hn. intros E. injection E as <- <-. exists i, g. cbn. repeat split; auto.
  destruct (skipn_nth_error _ i g Hn) as [rest ->]. cbn. eexists _, _. split; [reflexivity|]. cbn. apply N.sub_diag.
Qed.

Lemma restore_defined B H AHDR s ref g : In g (m_logs s) -> (g_ref g <= ref)%N ->
  exists s' r, checkpoint_restore B H AHDR s ref = Some (s', r).
Proof.
  intros Hin Hle. unfold checkpoint_restore. pose proof (newest_le_0 (m_logs s) ref) as Hs.
  destruct (newest_le (m_logs s) ref 0 None) as [j|].
  - destruct Hs as (g1 & -> & _). eauto.
  - specialize (Hs g Hin). lia.
Qed.

(* after a fossil collection a restore to any index finds a checkpoint: the kept log is not empty and starts at 0 *)
Theorem restore_after_fossil B H AHDR s tgt s' base ref :
  fossil_collect s tgt = Some (s', base) -> exists s'' r, checkpoint_restore B H AHDR s' ref = Some (s'', r).
Proof.
  intros F. destruct (fossil_keeps_base s tgt s' base F) as (_ & _ & _ & _ & _ & _ & (g0 & rest & El & E0) & _).
  apply (restore_defined B H AHDR s' ref g0); [rewrite El; left; reflexivity|lia].
Qed.
