(* One buddy arena of src/mm/buddy/buddy.c as a complete binary tree carrying the `longest` values: a successful
   buddy_malloc marks exactly one aligned range of free leaves and changes no other leaf. *)
From Coq Require Import List Arith Lia Bool.
Import ListNotations.

Definition inr (o len k : nat) : bool := Nat.leb o k && Nat.ltb k (o + len).

Lemma inr_spec o len k : reflect (o <= k < o + len) (inr o len k).
Proof. apply iff_reflect. unfold inr. rewrite andb_true_iff, Nat.leb_le, Nat.ltb_lt. reflexivity. Qed.

Lemma inr_below o len n k : o + len <= n -> n <= k -> inr o len k = false.
Proof. intros Ho Hk. destruct (inr_spec o len k); [lia|reflexivity]. Qed.

Lemma inr_0 len k : inr 0 len k = (k <? len).
Proof. reflexivity. Qed.

Lemma inr_shift n o len k : inr (n + o) len k = if k <? n then false else inr o len (k - n).
Proof.
  destruct (Nat.ltb_spec k n).
  - destruct (inr_spec (n + o) len k); [lia|reflexivity].
  - destruct (inr_spec (n + o) len k), (inr_spec o len (k - n)); reflexivity || lia.
Qed.

Lemma nth_repeat_ltb {A} (x d : A) n k : nth k (repeat x n) d = if k <? n then x else d.
Proof. revert k; induction n as [|n IH]; intros [|k]; simpl; auto. apply IH. Qed.

Lemma pow_pos e : 0 < 2 ^ e.
Proof. apply Nat.neq_0_lt_0, Nat.pow_nonzero. discriminate. Qed.
Lemma pow2_S h : 2 ^ S h = 2 ^ h + 2 ^ h.
Proof. simpl. rewrite Nat.add_0_r. reflexivity. Qed.
Lemma pow_divide e1 e2 : e1 <= e2 -> Nat.divide (2 ^ e1) (2 ^ e2).
Proof. intros H. exists (2 ^ (e2 - e1)). rewrite <- Nat.pow_add_r, Nat.sub_add by exact H. reflexivity. Qed.

Section Buddy.
Variable B : nat.                 (* block exponent; the code has 6 *)
Hypothesis Bpos : 0 < B.

Inductive bt := Lf (v : nat) | Nd (v : nat) (l r : bt).
Definition val (t : bt) : nat := match t with Lf v => v | Nd v _ _ => v end.

Fixpoint mk_full (h : nat) : bt := match h with 0 => Lf B | S h' => Nd (B + S h') (mk_full h') (mk_full h') end.

(* well-formed tree of height h: entirely free / handed out as one block (children keep their stale full values) / split *)
Fixpoint wf (h : nat) (t : bt) : Prop :=
  match h, t with
  | 0, Lf v => v = 0 \/ v = B
  | S h', Nd v l r =>
      t = mk_full (S h') \/
      (v = 0 /\ l = mk_full h' /\ r = mk_full h') \/
      (wf h' l /\ wf h' r /\ v = Nat.max (val l) (val r) /\ ~ (l = mk_full h' /\ r = mk_full h'))
  | _, _ => False
  end.

(* which 2^B-byte leaves are allocated *)
Fixpoint leaves (h : nat) (t : bt) : list bool :=
  match h, t with
  | 0, Lf v => [Nat.eqb v 0]
  | S h', Nd v l r => if Nat.eqb v 0 then repeat true (2 ^ S h') else leaves h' l ++ leaves h' r
  | _, _ => []
  end.

(* buddy_malloc for a block of 2^e bytes: new tree and offset in leaves *)
Fixpoint bm (h : nat) (t : bt) (e : nat) : option (bt * nat) :=
  match h, t with
  | 0, Lf v => if Nat.leb e v then Some (Lf 0, 0) else None
  | S h', Nd v l r =>
      if Nat.ltb v e then None
      else if Nat.eqb e (B + S h') then Some (Nd 0 l r, 0)
      else if Nat.leb e (val l)
           then match bm h' l e with Some (l', o) => Some (Nd (Nat.max (val l') (val r)) l' r, o) | None => None end
           else match bm h' r e with Some (r', o) => Some (Nd (Nat.max (val l) (val r')) l r', 2 ^ h' + o) | None => None end
  | _, _ => None
  end.

Lemma val_full h : val (mk_full h) = B + h.
Proof. destruct h; [symmetry; apply Nat.add_0_r|reflexivity]. Qed.

Lemma wf_full h : wf h (mk_full h).
Proof. destruct h; simpl; auto. Qed.

Lemma wf_node h v l r : wf (S h) (Nd v l r) -> v <> 0 -> wf h l /\ wf h r /\
  (l = mk_full h /\ r = mk_full h /\ v = B + S h \/ v = Nat.max (val l) (val r) /\ ~ (l = mk_full h /\ r = mk_full h)).
Proof.
  intros [E|[[-> _]|(Hl & Hr & Hv & Hn)]] Hv0; [|contradiction|auto 6].
  injection E as -> -> ->. split; [|split]; [apply wf_full..|left; auto].
Qed.

Lemma wf_split h l r : wf h l -> wf h r -> l <> mk_full h \/ r <> mk_full h -> wf (S h) (Nd (Nat.max (val l) (val r)) l r).
Proof. intros Hl Hr Hn. simpl. right; right. repeat split; [exact Hl|exact Hr|]. intros [El Er]. destruct Hn; contradiction. Qed.

Lemma leaves_full h : leaves h (mk_full h) = repeat false (2 ^ h).
Proof.
  induction h as [|h IH]; simpl.
  - destruct (Nat.eqb_spec B 0); [lia|reflexivity].
  - rewrite Nat.add_succ_r, IH, <- repeat_app, Nat.add_0_r. reflexivity.
Qed.

Lemma leaves_length h t : wf h t -> length (leaves h t) = 2 ^ h.
Proof.
  revert t; induction h as [|h IH]; intros [v|v l r]; try (simpl; contradiction); intros H; [reflexivity|]. simpl leaves.
  destruct (Nat.eqb_spec v 0) as [|Hv]; [apply repeat_length|].
  destruct (wf_node h v l r H Hv) as (Hl & Hr & _). rewrite app_length, !IH, pow2_S by assumption. reflexivity.
Qed.

Lemma val_range h t : wf h t -> val t = 0 \/ B <= val t <= B + h.
Proof.
  revert t; induction h as [|h IH]; intros [v|v l r]; simpl; try contradiction.
  - intros [->| ->]; auto with arith.
  - intros [E|[[-> _]|[Hl [Hr [-> _]]]]].
    + injection E as -> _ _. auto with arith.
    + left; reflexivity.
    + destruct (Nat.max_dec (val l) (val r)) as [->| ->]; [pose proof (IH l Hl)|pose proof (IH r Hr)]; lia.
Qed.

Lemma val_top_full h t : wf h t -> val t = B + h -> t = mk_full h.
Proof.
  revert t; induction h as [|h IH]; intros [v|v l r]; simpl; try contradiction.
  - intros [->| ->] E; [lia|reflexivity].
  - intros [E|[[-> _]|[Hl [Hr [-> _]]]]] Ev; auto; [lia|].
    exfalso. pose proof (val_range h l Hl). pose proof (val_range h r Hr). lia.
Qed.

Definition lv (h : nat) (t : bt) (k : nat) : bool := nth k (leaves h t) false.

Lemma leaves_zero h t : wf h t -> val t = 0 -> leaves h t = repeat true (2 ^ h).
Proof. destruct h, t; simpl; try contradiction; intros _ ->; reflexivity. Qed.

(* a value 0 may also be the maximum of two children with value 0 *)
Lemma leaves_Nd h v l r : wf h l -> wf h r -> (v = 0 -> val l = 0 /\ val r = 0) ->
  leaves (S h) (Nd v l r) = leaves h l ++ leaves h r.
Proof.
  intros Hl Hr Hv. cbn [leaves]. destruct (Nat.eqb_spec v 0) as [E|_]; [|reflexivity].
  destruct (Hv E) as [El Er]. rewrite (leaves_zero h l Hl El), (leaves_zero h r Hr Er), <- repeat_app, pow2_S. reflexivity.
Qed.

Lemma lv_full h k : lv h (mk_full h) k = false.
Proof. unfold lv. rewrite leaves_full. apply nth_repeat. Qed.

Lemma lv_zero h t k : wf h t -> val t = 0 -> lv h t k = (k <? 2 ^ h).
Proof. intros Hw Hv. unfold lv. rewrite (leaves_zero h t Hw Hv), nth_repeat_ltb. destruct (k <? 2 ^ h); reflexivity. Qed.

Lemma lv_Nd h v l r k : wf h l -> wf h r -> (v = 0 -> val l = 0 /\ val r = 0) ->
  lv (S h) (Nd v l r) k = if k <? 2 ^ h then lv h l k else lv h r (k - 2 ^ h).
Proof.
  intros Hl Hr Hv. unfold lv. rewrite (leaves_Nd h v l r Hl Hr Hv), <- (leaves_length h l Hl).
  destruct (Nat.ltb_spec k (length (leaves h l))) as [Hk|Hk]; [apply app_nth1, Hk|apply app_nth2, Hk].
Qed.

Lemma lv_node h v l r k : wf (S h) (Nd v l r) -> v <> 0 ->
  lv (S h) (Nd v l r) k = if k <? 2 ^ h then lv h l k else lv h r (k - 2 ^ h).
Proof. intros Hwf Hv. destruct (wf_node h v l r Hwf Hv) as (Hl & Hr & _). apply lv_Nd; [exact Hl|exact Hr|contradiction]. Qed.

Lemma lv_split h l r k : wf h l -> wf h r ->
  lv (S h) (Nd (Nat.max (val l) (val r)) l r) k = if k <? 2 ^ h then lv h l k else lv h r (k - 2 ^ h).
Proof. intros Hl Hr. apply lv_Nd; [exact Hl|exact Hr|lia]. Qed.

Record bm_post (h : nat) (t t' : bt) (e o : nat) : Prop := {
  m_wf : wf h t';
  m_free : forall k, inr o (2 ^ (e - B)) k = true -> lv h t k = false;
  m_lv : forall k, lv h t' k = if inr o (2 ^ (e - B)) k then true else lv h t k;
  m_in : o + 2 ^ (e - B) <= 2 ^ h;
  m_al : Nat.divide (2 ^ (e - B)) o
}.

Lemma bm_not_full h t t' e o : bm_post h t t' e o -> t' <> mk_full h.
Proof.
  intros P E. pose proof (m_lv h t t' e o P o) as H. rewrite E, lv_full in H.
  pose proof (pow_pos (e - B)). destruct (inr_spec o (2 ^ (e - B)) o); [discriminate|lia].
Qed.

Lemma bm_post_whole h t' e : wf h t' -> val t' = 0 -> e = B + h -> bm_post h (mk_full h) t' e 0.
Proof.
  intros Hw Hv ->. assert (E : B + h - B = h) by (rewrite Nat.add_comm; apply Nat.add_sub). split; rewrite ?E; [exact Hw| | |apply Nat.le_refl|apply Nat.divide_0_r].
  - intros k _. apply lv_full.
  - intros k. rewrite (lv_zero h t' k Hw Hv), lv_full, inr_0. destruct (k <? 2 ^ h); reflexivity.
Qed.

Lemma bm_post_left h v l r l' e o : wf (S h) (Nd v l r) -> v <> 0 -> bm_post h l l' e o ->
  bm_post (S h) (Nd v l r) (Nd (Nat.max (val l') (val r)) l' r) e o.
Proof.
  intros Hwf Hv P. pose proof (bm_not_full h l l' e o P) as Hnf. destruct P as [Pw Pf Pl Pi Pa].
  destruct (wf_node h v l r Hwf Hv) as (_ & Hwr & _).
  split; [apply wf_split; auto| | |rewrite pow2_S; apply (Nat.le_trans _ _ _ Pi), Nat.le_add_r|exact Pa]; intros k; rewrite (lv_node h v l r k Hwf Hv).
  - intros Hk. destruct (Nat.ltb_spec k (2 ^ h)) as [|Hge]; [apply Pf, Hk|]. rewrite (inr_below o _ _ k Pi Hge) in Hk. discriminate.
  - rewrite (lv_split h l' r k Pw Hwr). destruct (Nat.ltb_spec k (2 ^ h)) as [|Hge]; [apply Pl|]. rewrite (inr_below o _ _ k Pi Hge). reflexivity.
Qed.

Lemma bm_post_right h v l r r' e o : wf (S h) (Nd v l r) -> v <> 0 -> e <= B + h -> bm_post h r r' e o ->
  bm_post (S h) (Nd v l r) (Nd (Nat.max (val l) (val r')) l r') e (2 ^ h + o).
Proof.
  intros Hwf Hv He P. pose proof (bm_not_full h r r' e o P) as Hnf. destruct P as [Pw Pf Pl Pi Pa].
  destruct (wf_node h v l r Hwf Hv) as (Hwl & _ & _).
  split; [apply wf_split; auto| | |rewrite pow2_S, <- Nat.add_assoc; apply Nat.add_le_mono_l, Pi|apply Nat.divide_add_r; [apply pow_divide, Nat.le_sub_le_add_l, He|exact Pa]];
    intros k; rewrite inr_shift, (lv_node h v l r k Hwf Hv).
  - destruct (k <? 2 ^ h); [discriminate|apply Pf].
  - rewrite (lv_split h l r' k Hwl Pw). destruct (k <? 2 ^ h); [reflexivity|apply Pl].
Qed.

Theorem bm_spec : forall h t e, wf h t -> B <= e -> e <= val t ->
  exists t' o, bm h t e = Some (t', o) /\ bm_post h t t' e o.
Proof.
  induction h as [|h IH]; intros [v|v l r] e Hwf HB He; try (simpl in Hwf; contradiction); simpl in He.
  - (* leaf *)
    assert (v = B /\ e = B) as [-> ->] by (simpl in Hwf; lia).
    exists (Lf 0), 0. simpl. rewrite Nat.leb_refl. split; [reflexivity|].
    apply (bm_post_whole 0); simpl; auto.
  - (* inner node *)
    assert (Hv0 : v <> 0) by lia.
    destruct (val_range (S h) (Nd v l r) Hwf) as [E|[_ Hvle]]; [destruct (Hv0 E)|]. simpl in Hvle.
    simpl bm. rewrite (proj2 (Nat.ltb_ge v e) He).
    destruct (Nat.eqb_spec e (B + S h)) as [->|Hne].
    + (* the whole subtree is the block *)
      assert (Et : Nd v l r = mk_full (S h)) by (apply val_top_full; [exact Hwf|apply Nat.le_antisymm; assumption]). injection Et as -> -> ->.
      exists (Nd 0 (mk_full h) (mk_full h)), 0. split; [reflexivity|].
      apply (bm_post_whole (S h)); simpl; auto.
    + assert (Hle : e <= B + h) by lia.
      destruct (wf_node h v l r Hwf Hv0) as (Hwl & Hwr & Hv).
      assert (Ev : e <= val l \/ e <= val r).
      { destruct Hv as [(-> & _ & _)|[-> _]]; [left; rewrite val_full; exact Hle|apply Nat.max_le_iff, He]. }
      destruct (Nat.leb_spec e (val l)) as [Hel|Hel].
      * destruct (IH l e Hwl HB Hel) as (l' & o & -> & P).
        exists (Nd (Nat.max (val l') (val r)) l' r), o. split; [reflexivity|apply bm_post_left; assumption].
      * destruct (IH r e Hwr HB ltac:(lia)) as (r' & o & -> & P).
        exists (Nd (Nat.max (val l) (val r')) l r'), (2 ^ h + o). split; [reflexivity|apply bm_post_right; assumption].
Qed.

Lemma bm_offset h t e t' o : wf h t -> B <= e -> e <= val t -> bm h t e = Some (t', o) -> o < 2 ^ h.
Proof.
  intros Hw HB He E. destruct (bm_spec h t e Hw HB He) as (t2 & o2 & E2 & P). rewrite E in E2. injection E2 as <- <-.
  apply (Nat.lt_le_trans _ (o + 2 ^ (e - B))); [apply Nat.lt_add_pos_r, pow_pos|exact (m_in h t t' e o P)].
Qed.

Lemma bm_fail h t e : wf h t -> val t < e -> bm h t e = None.
Proof using Bpos.
  destruct h, t; simpl; try contradiction; intros _ H.
  - apply Nat.leb_gt in H. rewrite H. reflexivity.
  - apply Nat.ltb_lt in H. rewrite H. reflexivity.
Qed.
End Buddy.
