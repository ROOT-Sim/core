(* The sense-reversing two-counter barrier of core/sync.c for n threads, under all schedules. *)
From Coq Require Import List Arith ZArith Lia Bool.
Import ListNotations.

(* thread-local state: completed uses u (phase = u mod 4), and whether it is spinning in use u,
   with the leader flag it computed on entry *)
Record th := { uses : nat; spin : option bool }.

Record st := { ths : list th; c0 : Z; c1 : Z }.

Definition ctr (s : st) (u : nat) : Z := if Nat.even u then c0 s else c1 s.
Definition set_ctr (s : st) (u : nat) (v : Z) : st :=
  if Nat.even u then {| ths := ths s; c0 := v; c1 := c1 s |} else {| ths := ths s; c0 := c0 s; c1 := v |}.
Definition down (u : nat) : bool := Nat.leb 2 (u mod 4).

Fixpoint upd {A} (l : list A) (i : nat) (x : A) : list A :=
  match l, i with
  | [], _ => []
  | _ :: t, 0 => x :: t
  | h :: t, S j => h :: upd t j x
  end.

Definition nthr (s : st) : Z := Z.of_nat (length (ths s)).

(* Enter i: fetch_add on the counter of the current use *)
Definition enter (s : st) (i : nat) : option st :=
  match nth_error (ths s) i with
  | Some t =>
    match spin t with
    | Some _ => None
    | None =>
      let u := uses t in
      let c := ctr s u in
      let '(l, c') := if down u then (Z.eqb c 1, (c - 1)%Z) else (Z.eqb c 0, (c + 1)%Z) in
      let s' := set_ctr s u c' in
      Some {| ths := upd (ths s') i {| uses := u; spin := Some l |}; c0 := c0 s'; c1 := c1 s' |}
    end
  | None => None
  end.

(* Poll i: one load; leaves the barrier iff the exit test holds, otherwise no change *)
Definition poll (s : st) (i : nat) : option (st * option bool) :=
  match nth_error (ths s) i with
  | Some t =>
    match spin t with
    | None => None
    | Some l =>
      let u := uses t in
      let c := ctr s u in
      let ok := if down u then Z.eqb c 0 else Z.eqb c (nthr s) in
      if ok then Some ({| ths := upd (ths s) i {| uses := S u; spin := None |}; c0 := c0 s; c1 := c1 s |}, Some l)
      else Some (s, None)
    end
  | None => None
  end.

Definition init (n : nat) : st := {| ths := repeat {| uses := 0; spin := None |} n; c0 := 0; c1 := 0 |}.

(* entered t k : thread t has performed the fetch_add of use k *)
Definition entered (t : th) (k : nat) : bool :=
  Nat.ltb k (uses t) || (Nat.eqb k (uses t) && match spin t with Some _ => true | None => false end).
Definition cnt_entered (l : list th) (k : nat) : nat := length (filter (fun t => entered t k) l).

(* resting / running value of the counter of use k when e threads have entered it *)
Definition val (n : nat) (k : nat) (e : nat) : Z :=
  if down k then (Z.of_nat n - Z.of_nat e)%Z else Z.of_nat e.

(* K = the minimum number of completed uses *)
Definition Inv (s : st) : Prop :=
  exists K,
    (forall t, In t (ths s) -> uses t = K \/ uses t = S K) /\
    (exists t, In t (ths s) /\ uses t = K) /\
    ctr s K = val (length (ths s)) K (cnt_entered (ths s) K) /\
    ctr s (S K) = val (length (ths s)) (S K) (cnt_entered (ths s) (S K)) /\
    (* nobody completed use K unless all entered it *)
    ((exists t, In t (ths s) /\ uses t = S K) -> cnt_entered (ths s) K = length (ths s)).

Lemma upd_length {A} (l : list A) i x : length (upd l i x) = length l.
Proof. revert i; induction l as [|h t IH]; intros [|i]; simpl; auto. Qed.

Lemma nth_error_upd_eq {A} (l : list A) i x t : nth_error l i = Some t -> nth_error (upd l i x) i = Some x.
Proof. revert i; induction l as [|h tl IH]; intros [|i]; simpl; try discriminate; auto. Qed.

Lemma in_upd {A} (l : list A) i x y : In y (upd l i x) -> y = x \/ In y l.
Proof. revert i; induction l as [|h t IH]; intros [|i]; simpl; auto.
  - intros [H|H]; auto.
  - intros [H|H]; auto. destruct (IH _ H) as [H1|H1]; auto. Qed.

Lemma map_upd_same {A B} (f : A -> B) (l : list A) i x t : nth_error l i = Some t -> f x = f t -> map f (upd l i x) = map f l.
Proof. revert i; induction l as [|h tl IH]; intros [|i]; simpl; try discriminate.
  - intros [= ->] ->. reflexivity.
  - intros Hi E. rewrite (IH i Hi E). reflexivity. Qed.

(* the two clauses of the invariant that say which values [uses] takes speak of the list [map uses] *)
Lemma has_uses (l : list th) v : (exists t, In t l /\ uses t = v) <-> In v (map uses l).
Proof. rewrite in_map_iff. split; intros (t & H1 & H2); exists t; auto. Qed.

Lemma entered_out u k : entered {| uses := u; spin := None |} k = Nat.ltb k u.
Proof. unfold entered. simpl. rewrite Bool.andb_false_r, Bool.orb_false_r. reflexivity. Qed.
Lemma leb_ltb_eqb k u : (k <=? u) = (k <? u) || (k =? u).
Proof.
  apply Bool.eq_true_iff_eq. rewrite Bool.orb_true_iff, Nat.leb_le, Nat.ltb_lt, Nat.eqb_eq. apply Nat.lt_eq_cases.
Qed.
Lemma entered_spin u l k : entered {| uses := u; spin := Some l |} k = Nat.leb k u.
Proof. unfold entered. simpl. rewrite Bool.andb_true_r. symmetry. apply leb_ltb_eqb. Qed.
Lemma entered_after t k : uses t < k -> entered t k = false.
Proof. intros H. unfold entered. destruct (Nat.ltb_spec k (uses t)); [lia|]. destruct (Nat.eqb_spec k (uses t)); [lia|]. reflexivity. Qed.

Lemma cnt_upd (l : list th) i x t k :
  nth_error l i = Some t ->
  cnt_entered (upd l i x) k + (if entered t k then 1 else 0) = cnt_entered l k + (if entered x k then 1 else 0).
Proof.
  unfold cnt_entered. revert i; induction l as [|h tl IH]; intros [|i]; simpl; try discriminate.
  - intros [= ->]. destruct (entered t k), (entered x k); simpl; rewrite ?Nat.add_1_r, ?Nat.add_0_r; reflexivity.
  - intros Hi. specialize (IH _ Hi). destruct (entered h k); simpl; [apply f_equal|]; exact IH.
Qed.

Lemma cnt_enter l i u lf : nth_error l i = Some {| uses := u; spin := None |} ->
  cnt_entered (upd l i {| uses := u; spin := Some lf |}) u = S (cnt_entered l u).
Proof.
  intros Hi. pose proof (cnt_upd l i {| uses := u; spin := Some lf |} _ u Hi) as H.
  rewrite entered_out, entered_spin, Nat.ltb_irrefl, Nat.leb_refl, Nat.add_0_r, Nat.add_1_r in H. exact H.
Qed.
Lemma cnt_enter_other l i u lf k : k <> u -> nth_error l i = Some {| uses := u; spin := None |} ->
  cnt_entered (upd l i {| uses := u; spin := Some lf |}) k = cnt_entered l k.
Proof.
  intros N Hi. pose proof (cnt_upd l i {| uses := u; spin := Some lf |} _ k Hi) as H.
  rewrite entered_out, entered_spin, leb_ltb_eqb, (proj2 (Nat.eqb_neq k u) N), Bool.orb_false_r in H.
  exact (proj1 (Nat.add_cancel_r _ _ _) H).
Qed.
Lemma cnt_exit l i u lf k : nth_error l i = Some {| uses := u; spin := Some lf |} ->
  cnt_entered (upd l i {| uses := S u; spin := None |}) k = cnt_entered l k.
Proof.
  intros Hi. pose proof (cnt_upd l i {| uses := S u; spin := None |} _ k Hi) as H. rewrite entered_out, entered_spin in H.
  exact (proj1 (Nat.add_cancel_r _ _ _) H).
Qed.

Lemma cnt_le (l : list th) k : cnt_entered l k <= length l.
Proof. unfold cnt_entered. induction l as [|h t IH]; simpl; [apply Nat.le_refl|].
  destruct (entered h k); simpl; [apply le_n_S|apply Nat.le_le_succ_r]; exact IH. Qed.

Lemma in_not_entered_lt (l : list th) t k : In t l -> entered t k = false -> cnt_entered l k < length l.
Proof.
  unfold cnt_entered. induction l as [|h tl IH]; simpl; [tauto|].
  intros [->|H] He.
  - rewrite He. apply Nat.lt_succ_r. exact (cnt_le tl k).
  - specialize (IH H He). destruct (entered h k); simpl; [apply (proj1 (Nat.succ_lt_mono _ _))|apply Nat.lt_lt_succ_r]; exact IH.
Qed.

(* a thread about to enter use u has not been counted for it *)
Lemma cnt_before_enter l i u : nth_error l i = Some {| uses := u; spin := None |} -> cnt_entered l u < length l.
Proof. intros Hi. apply (in_not_entered_lt l _ u (nth_error_In _ _ Hi)). rewrite entered_out. apply Nat.ltb_irrefl. Qed.

Lemma cnt_zero l k : (forall t, In t l -> entered t k = false) -> cnt_entered l k = 0.
Proof. unfold cnt_entered. induction l as [|x r IH]; simpl; auto. intros H. rewrite (H x) by (left; auto). apply IH.
  intros t Ht. apply H. right; auto. Qed.

Lemma even_S u : Nat.even (S u) = negb (Nat.even u).
Proof. rewrite Nat.even_succ. rewrite <- Nat.negb_even. reflexivity. Qed.

Lemma ctr_set_same s u v : ctr (set_ctr s u v) u = v.
Proof. unfold ctr, set_ctr. destruct (Nat.even u) eqn:E; simpl; rewrite ?E; reflexivity. Qed.
Lemma ctr_set_other s u v : ctr (set_ctr s u v) (S u) = ctr s (S u).
Proof. unfold ctr, set_ctr. rewrite even_S. destruct (Nat.even u); reflexivity. Qed.
Lemma ctr_set_other' s u v : ctr (set_ctr s (S u) v) u = ctr s u.
Proof. unfold ctr, set_ctr. rewrite even_S. destruct (Nat.even u); reflexivity. Qed.
Lemma ths_set s u v : ths (set_ctr s u v) = ths s.
Proof. unfold set_ctr. destruct (Nat.even u); reflexivity. Qed.
Lemma ctr_SS s u : ctr s (S (S u)) = ctr s u.
Proof. unfold ctr. rewrite !even_S, Bool.negb_involutive. reflexivity. Qed.

Lemma down_SS u : down (S (S u)) = negb (down u).
Proof.
  unfold down. change (S (S u)) with (2 + u).
  rewrite Nat.add_mod by discriminate. pose proof (Nat.mod_upper_bound u 4 ltac:(discriminate)) as H.
  destruct (u mod 4) as [|[|[|[|k]]]]; [reflexivity..|lia].
Qed.

Lemma val_step n k e : val n k (S e) = if down k then (val n k e - 1)%Z else (val n k e + 1)%Z.
Proof. unfold val. destruct (down k); lia. Qed.

(* where use K leaves its counter, use K+2 finds it *)
Lemma val_start_after n K : val n K n = val n (S (S K)) 0.
Proof. unfold val. rewrite down_SS. destruct (down K); simpl; lia. Qed.

Definition ctr_ok (s : st) (k : nat) : Prop := ctr s k = val (length (ths s)) k (cnt_entered (ths s) k).

Definition InvK (s : st) (K : nat) : Prop :=
  (forall t, In t (ths s) -> uses t = K \/ uses t = S K) /\
  (exists t, In t (ths s) /\ uses t = K) /\
  ctr_ok s K /\ ctr_ok s (S K) /\
  ((exists t, In t (ths s) /\ uses t = S K) -> cnt_entered (ths s) K = length (ths s)).

Lemma InvK_ctr_ok s K t : InvK s K -> In t (ths s) -> ctr_ok s (uses t).
Proof. intros (Hu & _ & HcK & HcS & _) Ht. destruct (Hu t Ht) as [->| ->]; assumption. Qed.

Lemma exit_test_iff s u : ctr_ok s u ->
  (if down u then ctr s u =? 0 else ctr s u =? nthr s)%Z = true <-> cnt_entered (ths s) u = length (ths s).
Proof.
  unfold ctr_ok, val, nthr. intros ->. pose proof (cnt_le (ths s) u). destruct (down u); rewrite Z.eqb_eq; lia.
Qed.

Lemma enter_some s i s' : enter s i = Some s' ->
  exists u, nth_error (ths s) i = Some {| uses := u; spin := None |} /\
    ths s' = upd (ths s) i {| uses := u; spin := Some (if down u then ctr s u =? 1 else ctr s u =? 0)%Z |} /\
    forall k, ctr s' k = ctr (set_ctr s u (if down u then ctr s u - 1 else ctr s u + 1)%Z) k.
Proof.
  unfold enter. destruct (nth_error (ths s) i) as [[u [l|]]|]; try discriminate. simpl. intros H.
  exists u. split; [reflexivity|]. destruct (down u); injection H as <-; rewrite ths_set; split; reflexivity.
Qed.

Lemma enter_ctr_ok s i s' u k : nth_error (ths s) i = Some {| uses := u; spin := None |} -> enter s i = Some s' ->
  k = u \/ k = S u \/ u = S k -> ctr_ok s k -> ctr_ok s' k.
Proof.
  intros Hi He Hk Hok. destruct (enter_some s i s' He) as (u' & Hi' & Hths & Hctr). rewrite Hi in Hi'. injection Hi' as <-.
  unfold ctr_ok in *. rewrite Hctr, Hths, upd_length.
  destruct Hk as [->|[->| ->]].
  - rewrite (cnt_enter _ _ _ _ Hi), val_step, ctr_set_same, <- Hok. reflexivity.
  - rewrite (cnt_enter_other _ _ _ _ (S u) (Nat.neq_succ_diag_l u) Hi), ctr_set_other. exact Hok.
  - rewrite (cnt_enter_other _ _ _ _ k (Nat.neq_succ_diag_r k) Hi), ctr_set_other'. exact Hok.
Qed.

Theorem enter_inv s K i s' : InvK s K -> enter s i = Some s' -> InvK s' K.
Proof.
  intros (Hu & H0 & HcK & HcS & Hall) He. destruct (enter_some s i s' He) as (u & Hi & Hths & _).
  pose proof (fun k => enter_ctr_ok s i s' u k Hi He) as Hc.
  assert (HuK : u = K \/ u = S K) by exact (Hu _ (nth_error_In _ _ Hi)).
  assert (Hm : map uses (ths s') = map uses (ths s)) by (rewrite Hths; apply (map_upd_same uses _ _ _ _ Hi); reflexivity).
  repeat split.
  - intros x Hx. rewrite Hths in Hx. apply in_upd in Hx. destruct Hx as [->|Hx]; [exact HuK|exact (Hu x Hx)].
  - apply has_uses. rewrite Hm. apply has_uses. exact H0.
  - apply (Hc K); [lia|exact HcK].
  - apply (Hc (S K)); [lia|exact HcS].
  - intros H. apply has_uses in H. rewrite Hm in H. apply has_uses in H. specialize (Hall H).
    (* all have entered use K, so this thread is entering use K+1 *)
    destruct HuK as [->| ->].
    + pose proof (cnt_before_enter _ _ _ Hi) as Hlt. rewrite Hall in Hlt. destruct (Nat.lt_irrefl _ Hlt).
    + rewrite Hths, upd_length, (cnt_enter_other _ _ _ _ K (Nat.neq_succ_diag_r K) Hi). exact Hall.
Qed.

(* a poll either changes nothing, or leaves use u -- and then every thread has entered use u *)
Theorem poll_inv s K i s' r : InvK s K -> poll s i = Some (s', r) ->
  (r = None /\ s' = s) \/
  (exists u l, r = Some l /\ nth_error (ths s) i = Some {| uses := u; spin := Some l |} /\
               cnt_entered (ths s) u = length (ths s) /\ (InvK s' K \/ InvK s' (S K))).
Proof.
  intros I Hp. unfold poll in Hp.
  destruct (nth_error (ths s) i) as [[u [l|]]|] eqn:Hi; try discriminate. cbn [spin uses] in Hp.
  pose proof (nth_error_In _ _ Hi) as Ht.
  destruct (if down u then _ else _) eqn:Eok; injection Hp as <- <-; [right|left; auto].
  exists u, l. split; [reflexivity|]. split; [reflexivity|].
  apply (exit_test_iff s u (InvK_ctr_ok s K _ I Ht)) in Eok. split; [exact Eok|].
  destruct I as (Hu & (t0 & Ht0 & Hu0) & HcK & HcS & Hall).
  destruct (Hu _ Ht) as [E|E]; simpl in E; subst u.
  2:{ (* nobody leaves use K+1 while somebody has not entered it *)
      exfalso. assert (Hne : entered t0 (S K) = false) by (apply entered_after; rewrite Hu0; apply Nat.lt_succ_diag_r).
      pose proof (in_not_entered_lt (ths s) t0 (S K) Ht0 Hne) as Hlt. rewrite Eok in Hlt. exact (Nat.lt_irrefl _ Hlt). }
  set (t' := {| uses := S K; spin := None |}). set (l' := upd (ths s) i t').
  assert (Hsame : forall k, cnt_entered l' k = cnt_entered (ths s) k) by (intros k; exact (cnt_exit _ _ _ _ k Hi)).
  assert (Hlen : length l' = length (ths s)) by apply upd_length.
  assert (Hu' : forall y, In y l' -> uses y = K \/ uses y = S K).
  { intros y Hy. apply in_upd in Hy. destruct Hy as [->|Hy]; [right; reflexivity|exact (Hu y Hy)]. }
  destruct (in_dec Nat.eq_dec K (map uses l')) as [HK|HK]; [left|right]; unfold InvK, ctr_ok; cbn [ths]; fold l'; rewrite Hlen, !Hsame.
  - (* somebody is still in use K *)
    repeat split; auto. apply has_uses. exact HK.
  - (* that was the last one: the window moves to K+1 *)
    assert (HallS : forall y, In y l' -> uses y = S K).
    { intros y Hy. destruct (Hu' y Hy) as [E|E]; [|exact E]. exfalso. apply HK. rewrite <- E. apply in_map. exact Hy. }
    repeat split.
    + intros y Hy. left. auto.
    + exists t'. split; [exact (nth_error_In _ _ (nth_error_upd_eq _ _ _ _ Hi))|reflexivity].
    + exact HcS.
    + change (ctr {| ths := l'; c0 := c0 s; c1 := c1 s |} (S (S K))) with (ctr s (S (S K))).
      rewrite ctr_SS, HcK, Eok, val_start_after. f_equal.
      rewrite <- (Hsame (S (S K))). symmetry. apply cnt_zero. intros y Hy. apply entered_after. rewrite (HallS y Hy). apply Nat.lt_succ_diag_r.
    + intros (y & Hy & Ey). rewrite (HallS y Hy) in Ey. destruct (Nat.neq_succ_diag_r _ Ey).
Qed.

Lemma init_inv n : 0 < n -> InvK (init n) 0.
Proof.
  intros Hn. unfold InvK, ctr_ok, init. simpl. rewrite repeat_length.
  assert (Hz : forall k, cnt_entered (repeat {| uses := 0; spin := None |} n) k = 0).
  { intros k. apply cnt_zero. intros t Ht. apply repeat_spec in Ht. subst t. rewrite entered_out. reflexivity. }
  repeat split.
  - intros t Ht. apply repeat_spec in Ht. subst. left; reflexivity.
  - exists {| uses := 0; spin := None |}. split; [|reflexivity]. destruct n; [lia|left; reflexivity].
  - rewrite Hz. reflexivity.
  - rewrite Hz. reflexivity.
  - intros [t [Ht Eu]]. apply repeat_spec in Ht. subst. discriminate.
Qed.
