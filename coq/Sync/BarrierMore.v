(* C17: consequences of the barrier invariant: reachability, who is told it is the leader, when the exit is enabled. *)
From Coq Require Import List Arith ZArith Lia Bool.
From RS Require Import Sync.BarrierProto.
Import ListNotations.

Inductive act := Enter (i : nat) | Poll (i : nat).

Definition do_act (s : st) (a : act) : option st :=
  match a with
  | Enter i => enter s i
  | Poll i => match poll s i with Some (s', _) => Some s' | None => None end
  end.

Fixpoint run_acts (s : st) (l : list act) : option st :=
  match l with
  | [] => Some s
  | a :: r => match do_act s a with Some s' => run_acts s' r | None => None end
  end.

Lemma run_acts_inv l : forall s0 K s, InvK s0 K -> run_acts s0 l = Some s -> exists K', InvK s K'.
Proof.
  induction l as [|a l IH]; intros s0 K s I R; cbn in R.
  - injection R as <-. exists K. exact I.
  - destruct a as [i|i]; cbn in R.
    + destruct (enter s0 i) as [s1|] eqn:E; [|discriminate].
      apply (IH s1 K s); [eapply enter_inv; eassumption|exact R].
    + destruct (poll s0 i) as [[s1 r]|] eqn:E; [|discriminate].
      destruct (poll_inv s0 K i s1 r I E) as [[_ ->]|(u & lf & _ & _ & _ & [I'|I'])].
      * apply (IH s0 K s I R).
      * apply (IH s1 K s I' R).
      * apply (IH s1 (S K) s I' R).
Qed.

(* every state reachable from the initial one by any schedule satisfies the invariant for some window K *)
Theorem reachable_inv n (Hn : 0 < n) : forall l s, run_acts (init n) l = Some s -> exists K, InvK s K.
Proof. intros l s. exact (run_acts_inv l (init n) 0 s (init_inv n Hn)). Qed.

(* no early exit, for every reachable state: a poll that leaves use u does so only when all threads have entered use u *)
Theorem no_early_exit n (Hn : 0 < n) l s i s' lf :
  run_acts (init n) l = Some s -> poll s i = Some (s', Some lf) ->
  exists u, nth_error (ths s) i = Some {| uses := u; spin := Some lf |} /\ cnt_entered (ths s) u = length (ths s).
Proof.
  intros R P. destruct (reachable_inv n Hn l s R) as [K I].
  destruct (poll_inv s K i s' (Some lf) I P) as [[H _]|(u & l0 & Hr & Hn' & Hall & _)]; [discriminate|].
  injection Hr as <-. exists u. auto.
Qed.

(* the leader flag computed on entry: true exactly for the first thread to enter a counting-up use and for the
   last thread to enter a counting-down use.  (That exactly one thread per use is told it is the leader follows
   because the number of entered threads of a use takes each value 0..n-1 once; this is not stated below.) *)
Theorem enter_leader_iff s K i s' t :
  InvK s K -> nth_error (ths s) i = Some t -> spin t = None -> enter s i = Some s' ->
  exists lf, nth_error (ths s') i = Some {| uses := uses t; spin := Some lf |} /\
    (lf = true <-> cnt_entered (ths s) (uses t) = if down (uses t) then length (ths s) - 1 else 0).
Proof.
  intros I Hi _ He. destruct (enter_some s i s' He) as (u & Hi' & Hths & _).
  rewrite Hi in Hi'. injection Hi' as ->. cbn [uses].
  pose proof (nth_error_In _ _ Hi) as Hin.
  pose proof (InvK_ctr_ok s K _ I Hin) as Hc. unfold ctr_ok, val in Hc. cbn [uses] in Hc.
  pose proof (cnt_before_enter _ _ _ Hi) as Hlt.
  eexists. split; [rewrite Hths; exact (nth_error_upd_eq _ _ _ _ Hi)|].
  rewrite Hc. destruct (down u); rewrite Z.eqb_eq; lia.
Qed.

(* once every thread has entered use u, the exit test of every thread spinning in use u is true; a thread that is
   not spinning can always enter.  These are statements about one state (what is enabled), not about schedules. *)
Theorem exit_enabled s K i u lf :
  InvK s K -> nth_error (ths s) i = Some {| uses := u; spin := Some lf |} -> cnt_entered (ths s) u = length (ths s) ->
  exists s', poll s i = Some (s', Some lf).
Proof.
  intros I Hi Hfull. pose proof (InvK_ctr_ok s K _ I (nth_error_In _ _ Hi)) as Hc.
  apply (exit_test_iff s u Hc) in Hfull. unfold poll. rewrite Hi. cbn [spin uses]. rewrite Hfull. eauto.
Qed.

Theorem enter_enabled s i t : nth_error (ths s) i = Some t -> spin t = None -> exists s', enter s i = Some s'.
Proof.
  intros Hi Hsp. unfold enter. rewrite Hi, Hsp. destruct (down (uses t)); eauto.
Qed.

(* reusability: the invariant has the same shape for every window K; it is re-established by the hand-over K -> K+1
   (poll_inv) for arbitrarily many consecutive uses, which is what reachable_inv states for every schedule *)

Definition barrier_init (n : nat) : st := BarrierProto.init n.
