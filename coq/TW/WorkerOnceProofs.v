(* Exactly-once cancellation and absence of the error flag on the worker model, for every script and every program whose
   handler never schedules into the past (H_time), whose event types stay below the reserved ones (H_type) and whose
   destinations are hosted LPs (H_dest), the initial events included (H_init): the worker's operations keep the location
   predicate of TW/WorkerOnce.v. *)
From Coq Require Import List ZArith NArith PArith Bool Arith Lia Sorted Permutation FMapPositive.
From RS Require Import Order.MsgOrderDefs Heap.HeapList Heap.HeapListProofs Heap.HeapTime TW.App TW.Seq TW.Worker TW.WorkerProofs TW.WorkerSafety TW.WorkerOnce.
Import ListNotations.

Definition procs_of (h : list entry) : list wmsg := flat_map (fun e => match e with EProc m => [m] | ESent _ => [] end) h.
Definition marks_of (h : list entry) : list wmsg := flat_map (fun e => match e with ESent m => [m] | EProc _ => [] end) h.
Definition allprocs (lps : list lpx) : list wmsg := flat_map (fun x => procs_of (x_hist x)) lps.
Definition allmarks (lps : list lpx) : list wmsg := flat_map (fun x => marks_of (x_hist x)) lps.

Lemma procs_app a b : procs_of (a ++ b) = procs_of a ++ procs_of b.
Proof. apply flat_map_app. Qed.
Lemma marks_app a b : marks_of (a ++ b) = marks_of a ++ marks_of b.
Proof. apply flat_map_app. Qed.
Lemma in_procs h m : In m (procs_of h) <-> In (EProc m) h.
Proof.
  unfold procs_of. rewrite in_flat_map. split.
  - intros [e [He Hm]]. destruct e as [x|x]; [destruct Hm|]. destruct Hm as [<-|[]]. exact He.
  - intros H. exists (EProc m). split; [exact H|left; reflexivity].
Qed.
Lemma in_marks h m : In m (marks_of h) <-> In (ESent m) h.
Proof.
  unfold marks_of. rewrite in_flat_map. split.
  - intros [e [He Hm]]. destruct e as [x|x]; [|destruct Hm]. destruct Hm as [<-|[]]. exact He.
  - intros H. exists (ESent m). split; [exact H|left; reflexivity].
Qed.
Lemma procs_sent ms : all_sent ms -> procs_of ms = [].
Proof. induction 1 as [|e r He _ IH]; [reflexivity|]. destruct e; [exact IH|discriminate]. Qed.
Lemma procs_map_sent news : procs_of (map ESent news) = [].
Proof. apply procs_sent, all_sent_map. Qed.
Lemma marks_map_sent news : marks_of (map ESent news) = news.
Proof. induction news as [|a r IH]; [reflexivity|]. cbn. f_equal. exact IH. Qed.
Lemma m32_small x : (x < 4294967296)%N -> m32 x = x.
Proof. intros H. unfold m32. apply N.mod_small. exact H. Qed.

Lemma flat_map_set_nth {B} (g : lpx -> list B) lps : forall l x, l < length lps ->
  Permutation (g (nth l lps lpx_dummy) ++ flat_map g (set_nth lps l x)) (g x ++ flat_map g lps).
Proof.
  induction lps as [|y r IH]; intros l x Hl; cbn in Hl; [lia|]. destruct l as [|l]; cbn [nth set_nth flat_map].
  - rewrite !app_assoc. apply Permutation_app_tail, Permutation_app_comm.
  - rewrite Permutation_app_swap_app, (IH l x) by lia. apply Permutation_app_swap_app.
Qed.
(* the new history is the old one without a part [es]: rollback, fossil collection *)
Lemma put_hist_perm {B} (g : list entry -> list B) (Hg : forall a b, g (a ++ b) = g a ++ g b) w l x a es b :
  l < length (k_lps w) -> x_hist (get_lp w l) = a ++ es ++ b -> x_hist x = a ++ b ->
  Permutation (flat_map (fun y => g (x_hist y)) (k_lps w)) (g es ++ flat_map (fun y => g (x_hist y)) (k_lps (put_lp w l x))).
Proof.
  intros Hl E E'. pose proof (flat_map_set_nth (fun y => g (x_hist y)) (k_lps w) l x Hl) as X. cbn beta in X. fold (get_lp w l) in X. rewrite E, E' in X.
  apply (Permutation_app_inv_l (g (a ++ b))). rewrite <- X, !Hg, <- !app_assoc. apply Permutation_app_head, Permutation_app_swap_app.
Qed.
Lemma put_hist_more {B} (g : list entry -> list B) (Hg : forall a b, g (a ++ b) = g a ++ g b) w l x es :
  l < length (k_lps w) -> x_hist x = x_hist (get_lp w l) ++ es ->
  Permutation (flat_map (fun y => g (x_hist y)) (k_lps (put_lp w l x))) (g es ++ flat_map (fun y => g (x_hist y)) (k_lps w)).
Proof.
  intros Hl E. pose proof (flat_map_set_nth (fun y => g (x_hist y)) (k_lps w) l x Hl) as X. cbn beta in X. fold (get_lp w l) in X.
  rewrite E, Hg, <- app_assoc in X. exact (Permutation_app_inv_l _ _ _ X).
Qed.
Lemma put_same_hist w l x : l < length (k_lps w) -> x_hist x = x_hist (get_lp w l) ->
  allprocs (k_lps (put_lp w l x)) = allprocs (k_lps w) /\ allmarks (k_lps (put_lp w l x)) = allmarks (k_lps w).
Proof.
  intros Hl E. cbn [put_lp set_lps k_lps]. unfold allprocs, allmarks, get_lp in *. revert l Hl E.
  induction (k_lps w) as [|y r IH]; intros l Hl E; cbn in Hl; [lia|]. destruct l as [|l]; cbn [set_nth flat_map nth] in *.
  - rewrite E. split; reflexivity.
  - destruct (IH l ltac:(lia) E) as [-> ->]. split; reflexivity.
Qed.
Lemma nodup_app_inv {A} (a b : list A) : NoDup (a ++ b) -> NoDup a /\ NoDup b.
Proof.
  induction a as [|x a IH]; cbn; intros H; [split; [constructor|exact H]|]. inversion H as [|? ? Hx Hn]; subst. destruct (IH Hn) as [Ha Hb].
  split; [constructor; [intro Hi; apply Hx, in_or_app; left; exact Hi|exact Ha]|exact Hb].
Qed.
Lemma nodup_flat_map {A B C} (f : B -> C) (g : A -> list B) l x : NoDup (map f (flat_map g l)) -> In x l -> NoDup (map f (g x)).
Proof.
  induction l as [|y r IH]; intros Hn Hx; [destruct Hx|]. cbn [flat_map] in Hn. rewrite map_app in Hn. apply nodup_app_inv in Hn.
  destruct Hx as [->|Hx]; [apply Hn|exact (IH (proj2 Hn) Hx)].
Qed.
Lemma in_allprocs_iff w y : In y (allprocs (k_lps w)) <-> exists i, i < length (k_lps w) /\ In (EProc y) (x_hist (get_lp w i)).
Proof.
  unfold allprocs. rewrite in_flat_map. split.
  - intros (x & Hx & Hm). destruct (In_nth _ _ lpx_dummy Hx) as (i & Hi & E). exists i. split; [exact Hi|]. unfold get_lp. rewrite E. apply in_procs, Hm.
  - intros (i & Hi & H). exists (get_lp w i). split; [apply get_lp_in, Hi|apply in_procs, H].
Qed.
Lemma in_allmarks_iff w y : In y (allmarks (k_lps w)) <-> exists i, i < length (k_lps w) /\ In (ESent y) (x_hist (get_lp w i)).
Proof.
  unfold allmarks. rewrite in_flat_map. split.
  - intros (x & Hx & Hm). destruct (In_nth _ _ lpx_dummy Hx) as (i & Hi & E). exists i. split; [exact Hi|]. unfold get_lp. rewrite E. apply in_marks, Hm.
  - intros (i & Hi & H). exists (get_lp w i). split; [apply get_lp_in, Hi|apply in_marks, H].
Qed.

Lemma extract_perm w : match wq_extract w with
                       | (Some m, w1) => Permutation (pend w) (m :: pend w1)
                       | (None, w1) => Permutation (pend w) (pend w1)
                       end.
Proof. exact (wq_extract_perm w). Qed.

Definition once (w : worker) (hand : list wmsg) : Prop :=
  Loc (k_gvt w) (k_flags w) (pend w) (hand ++ allprocs (k_lps w)) (allmarks (k_lps w)) (k_next w).

Lemma undo_all_loc g es : forall w pr mk,
  Loc g (k_flags w) (pend w) (procs_of es ++ pr) (marks_of es ++ mk) (k_next w) ->
  (forall m, In (ESent m) es -> (g <= Z.of_N (tm m))%Z) ->
  Loc g (k_flags (fold_left undo_entry es w)) (pend (fold_left undo_entry es w)) pr mk (k_next w).
Proof.
  induction es as [|e es IH]; intros w pr mk HL Hge; cbn [fold_left]; [exact HL|].
  rewrite <- (proj2 (proj2 (proj2 (undo_entry_same w e)))). apply IH; [|intros x Hx; apply Hge; right; exact Hx].
  rewrite (proj2 (proj2 (proj2 (undo_entry_same w e)))). destruct e as [m|m]; unfold undo_entry.
  - change (marks_of (ESent m :: es) ++ mk) with (m :: (marks_of es ++ mk)) in HL.
    destruct (Loc_unmark _ _ _ _ _ _ _ HL (Hge m (or_introl eq_refl))) as [[Hf HL']|[Hf HL']]; unfold flag_add; fold (fl (k_flags w) m); rewrite Hf; exact HL'.
  - change (procs_of (EProc m :: es) ++ pr) with (m :: (procs_of es ++ pr)) in HL.
    destruct (Loc_unproc _ _ _ _ _ _ _ HL) as [[Hf HL']|[[Hf HL']|[Hf HL']]]; unfold flag_sub; fold (fl (k_flags w) m); rewrite Hf; exact HL'.
Qed.

Section OnceProofs.
Variable p : prog.
Variable ck : nat.
Hypothesis H_time : forall ev st e, In e (snd (handle p ev st)) -> (e_t ev <= e_t e)%N.

Lemma undone_ge x past (lo : N) : lp_ok2 p x -> bnd (x_hist x) past -> fst (base x) <= past -> past <= length (x_hist x) ->
  (forall m, In (EProc m) (skipn past (x_hist x)) -> (lo <= tm m)%N) ->
  forall m, In (ESent m) (skipn past (x_hist x)) -> (lo <= tm m)%N.
Proof. intros H2 Hb Hr _. exact (undone_marks_ge p H_time x past lo H2 Hb Hr). Qed.

Lemma do_rollback_once w l past (lo : N) hand :
  all_ok2 p w -> l < length (k_lps w) ->
  bnd (x_hist (get_lp w l)) past -> fst (base (get_lp w l)) <= past ->
  (k_gvt w <= Z.of_N lo)%Z ->
  (forall m, In (EProc m) (skipn past (x_hist (get_lp w l))) -> (lo <= tm m)%N) ->
  once w hand -> k_err (do_rollback p w l past) = k_err w /\ once (do_rollback p w l past) hand.
Proof.
  intros Hok Hl Hbnd Hr0 Hlo Hproc HL. set (x := get_lp w l) in *. set (es := skipn past (x_hist x)).
  assert (Hx2 : lp_ok2 p x) by (apply get_ok2; assumption).
  pose proof (drop_newer_some p x past (proj1 Hx2) Hr0) as Hne.
  destruct (drop_newer (x_logs x) past) as [|[ref snap] older] eqn:Hd; [congruence|].
  rewrite (do_rollback_unfold p w l past ref snap older Hd). fold x es.
  destruct (undo_all_same es w) as ((E1 & Eerr & Eg & _) & _ & _ & Enx). cbn zeta in *. set (w1 := fold_left undo_entry es w) in *.
  set (x' := mkLpx _ _ _ _ _ _). split; [exact Eerr|]. unfold once. cbn [put_lp set_lps k_gvt k_flags k_next]. change (pend (set_lps w1 _)) with (pend w1). rewrite Eg, Enx.
  assert (Hl1 : l < length (k_lps w1)) by (rewrite E1; exact Hl).
  assert (Eh : x_hist (get_lp w1 l) = firstn past (x_hist x) ++ es ++ []) by (unfold get_lp; rewrite E1, app_nil_r; symmetry; apply firstn_skipn).
  assert (Eh' : x_hist x' = firstn past (x_hist x) ++ []) by (symmetry; apply app_nil_r).
  eapply Loc_perm; [apply (undo_all_loc (k_gvt w) es w)| | |].
  - eapply Loc_perm; [exact HL|apply Permutation_refl| |].
    + rewrite <- E1, (put_hist_perm procs_of procs_app w1 l x' _ es [] Hl1 Eh Eh'). apply Permutation_app_swap_app.
    + rewrite <- E1. apply (put_hist_perm marks_of marks_app w1 l x' _ es [] Hl1 Eh Eh').
  - intros m Hm. specialize (undone_ge x past lo Hx2 Hbnd Hr0 (bnd_le _ _ Hbnd) Hproc m Hm). lia.
  - apply Permutation_refl.
  - apply Permutation_refl.
  - apply Permutation_refl.
Qed.

Lemma Loc_news g pr outs : forall f pd mk nx, Loc g f pd pr mk nx ->
  Loc g (fold_left (fun f m => flag_set f (wm_id m) 0) (news_from nx outs) f) (rev (news_from nx outs) ++ pd) pr (news_from nx outs ++ mk)
        (fold_left (fun k _ => Pos.succ k) (news_from nx outs) nx).
Proof.
  induction outs as [|e r IH]; intros f pd mk nx HL; cbn [news_from fold_left rev app]; [exact HL|].
  apply (Loc_fresh _ _ e), IH in HL. rewrite <- app_assoc. eapply Loc_perm; [exact HL|apply Permutation_refl..|]. apply Permutation_sym, Permutation_middle.
Qed.

Lemma forward_once w l m : l < length (k_lps w) -> once w [m] -> once (forward p ck w l m) [].
Proof.
  intros Hl HL. rewrite forward_eq. cbn zeta. set (news := news_from (k_next w) _). set (x' := mkLpx _ _ _ _ _ _).
  apply (Loc_news _ _ (snd (handle p (wm_ev m) (x_st (get_lp w l))))) in HL. fold news in HL.
  unfold once. cbn [put_lp set_lps k_gvt k_flags k_next sent_state]. change (pend (put_lp (sent_state w news) l x')) with (pend (sent_state w news)). rewrite pend_sent.
  assert (Eh : x_hist x' = x_hist (get_lp (sent_state w news) l) ++ (map ESent news ++ [EProc m])) by reflexivity.
  eapply Loc_perm; [exact HL|apply Permutation_refl| |].
  - cbn [app]. rewrite (put_hist_more procs_of procs_app (sent_state w news) l x' _ Hl Eh), procs_app, procs_map_sent. reflexivity.
  - rewrite (put_hist_more marks_of marks_app (sent_state w news) l x' _ Hl Eh), marks_app, marks_map_sent. cbn. rewrite app_nil_r. reflexivity.
Qed.

(* the base of an LP's history: index 0 after a fossil collection, the LP_INIT message before *)
Definition lp_base (x : lpx) : Prop :=
  fst (base x) = 0 \/
  exists marks im, firstn (fst (base x)) (x_hist x) = marks ++ [EProc im] /\ all_sent marks /\
                   e_type (wm_ev im) = LP_INIT_TYPE /\ e_t (wm_ev im) = 0%N /\ e_pl (wm_ev im) = [].

Lemma base_init x marks im : lp_ok p x -> firstn (fst (base x)) (x_hist x) = marks ++ [EProc im] ->
  fst (base x) = S (length marks) /\ nth_error (x_hist x) (length marks) = Some (EProc im).
Proof.
  intros Hok Ef. pose proof (base_le_len p x Hok) as Hle.
  assert (Hlen : fst (base x) = S (length marks)) by (rewrite <- (firstn_length_le (x_hist x) Hle), Ef, app_length; cbn; lia).
  split; [exact Hlen|]. rewrite <- (nth_error_firstn_lt (x_hist x) (fst (base x))), Ef by lia. apply nth_error_snoc.
Qed.

Lemma base_proc_index x j m : lp_ok p x -> lp_base x -> nth_error (x_hist x) j = Some (EProc m) -> fst (base x) <= S j.
Proof.
  intros Hok [H0|(marks & im & Ef & Hs & _)] Hn; [lia|]. destruct (base_init x marks im Hok Ef) as [Hlen _].
  destruct (Nat.lt_ge_cases j (length marks)) as [Hlt|Hge]; [exfalso|lia].
  rewrite <- (nth_error_firstn_lt (x_hist x) (fst (base x))), Ef, nth_error_app1 in Hn by lia. apply nth_error_In in Hn.
  unfold all_sent in Hs. rewrite Forall_forall in Hs. specialize (Hs _ Hn). discriminate.
Qed.

Lemma Loc_release_all g f pd mk nx rel : forall pr, Loc g f pd (rel ++ pr) mk nx ->
  (forall m, In m rel -> (Z.of_N (tm m) < g)%Z) -> (forall x, In x pd -> (g <= Z.of_N (tm x))%Z) -> Loc g f pd pr mk nx.
Proof.
  induction rel as [|m rel IH]; intros pr HL Hlt Hge; [exact HL|].
  apply IH; [|intros y Hy; apply Hlt; right; exact Hy|exact Hge].
  apply (Loc_release g f m); [exact HL|apply Hlt; left; reflexivity|exact Hge].
Qed.
Lemma Loc_drop_marks g f pd pr nx rel : forall mk, Loc g f pd pr (rel ++ mk) nx -> Loc g f pd pr mk nx.
Proof.
  induction rel as [|m rel IH]; intros mk HL; [exact HL|]. apply IH. apply (Loc_drop_mark g f m). exact HL.
Qed.

Lemma fossil_once w l pd hand :
  all_ok2 p w -> Forall lp_time (k_lps w) -> l < length (k_lps w) -> lp_base (get_lp w l) ->
  Loc (k_gvt w) (k_flags w) pd (hand ++ allprocs (k_lps w)) (allmarks (k_lps w)) (k_next w) ->
  (forall y, In y pd -> (k_gvt w <= Z.of_N (tm y))%Z) ->
  let w' := fossil_lp w l in
  k_err w' = k_err w /\
  Loc (k_gvt w) (k_flags w) pd (hand ++ allprocs (k_lps w')) (allmarks (k_lps w')) (k_next w) /\
  (get_lp w' l = get_lp w l \/
   exists r, x_hist (get_lp w' l) = skipn r (x_hist (get_lp w l)) /\ fst (base (get_lp w l)) <= r /\ fst (base (get_lp w' l)) = 0).
Proof.
  intros Hok Htime Hl Hbase HL Hge. unfold fossil_lp. set (x := get_lp w l) in *.
  destruct (get_ok2 p w l Hok Hl) as [Hlok _]. fold x in Hlok.
  destruct (newest_below (k_gvt w) (rev (x_hist x)) (length (x_hist x))) as [past|] eqn:En; [|split; [reflexivity|split; [exact HL|left; reflexivity]]].
  destruct (newest_below_spec _ _ _ En) as (m0 & Hn0 & _).
  pose proof (base_proc_index x past m0 Hlok Hbase Hn0) as Hr0.
  pose proof (drop_newer_some p x (past + 1) Hlok ltac:(lia)) as Hne.
  destruct (drop_newer (x_logs x) (past + 1)) as [|[ref snap] older] eqn:Hd; [congruence|].
  destruct (log_cut p x _ ref snap older Hlok Hd) as (pre & E & _ & [Hrefge _] & _).
  assert (Hxt : lp_time x) by (rewrite Forall_forall in Htime; apply Htime, get_lp_in, Hl).
  pose proof (fossil_releases_below p ck H_time x (k_gvt w) past ref snap older (proj1 Hxt) En (proj1 (proj2 (proj1 (lp_ok_base p x) Hlok))) Hd) as Hrel.
  cbn zeta. set (x' := mkLpx _ _ _ _ _ _). rewrite get_lp_set by exact Hl.
  split; [reflexivity|]. split.
  - assert (Eh : x_hist x = [] ++ firstn ref (x_hist x) ++ skipn ref (x_hist x)) by (symmetry; apply firstn_skipn).
    eapply Loc_drop_marks, Loc_release_all; [|intros m Hm; apply Hrel, in_procs, Hm|exact Hge].
    eapply Loc_perm; [exact HL|apply Permutation_refl| |].
    + rewrite (put_hist_perm procs_of procs_app w l x' _ _ _ Hl Eh eq_refl). apply Permutation_app_swap_app.
    + apply (put_hist_perm marks_of marks_app w l x' _ _ _ Hl Eh eq_refl).
  - right. exists ref. split; [reflexivity|]. split; [exact Hrefge|]. unfold base, x'. cbn [x_logs]. rewrite (fossil_kept _ pre _ older E), map_app. cbn [map]. rewrite last_last. apply Nat.sub_diag.
Qed.

Definition tyok (m : wmsg) : Prop := (e_type (wm_ev m) < LP_INIT_TYPE)%N.
Definition lp_extra (n l : nat) (x : lpx) : Prop :=
  lp_base x /\
  (forall m, In (EProc m) (skipn (fst (base x)) (x_hist x)) -> tyok m) /\
  (forall m, In (EProc m) (x_hist x) -> N.to_nat (e_dest (wm_ev m)) = l) /\
  (forall m, In (ESent m) (x_hist x) -> tyok m /\ N.to_nat (e_dest (wm_ev m)) < n).
Definition extra (w : worker) : Prop :=
  (forall m, In m (pend w) -> tyok m /\ N.to_nat (e_dest (wm_ev m)) < length (k_lps w)) /\
  (forall l, l < length (k_lps w) -> lp_extra (length (k_lps w)) l (get_lp w l)).

Lemma lp_extra_sub n l x x' : lp_extra n l x -> lp_base x' ->
  (forall e, In e (skipn (fst (base x')) (x_hist x')) -> In e (skipn (fst (base x)) (x_hist x))) ->
  (forall e, In e (x_hist x') -> In e (x_hist x)) -> lp_extra n l x'.
Proof. intros (_ & Ht & Hd & Hm) Hb H1 H2. split; [exact Hb|]. split; [|split]; intros m Hin; [apply Ht, H1|apply Hd, H2|apply Hm, H2]; exact Hin. Qed.

Lemma fix_bound_extra n l x : lp_extra n l x -> lp_extra n l (fix_bound x).
Proof. unfold lp_extra, lp_base, base. rewrite fix_bound_hist, fix_bound_logs. exact id. Qed.

Lemma extra_put w l x : l < length (k_lps w) -> extra w -> lp_extra (length (k_lps w)) l x -> extra (put_lp w l x).
Proof.
  intros Hl [Hp Hx] Hlx. unfold extra. rewrite put_lp_length. split; [exact Hp|]. intros i Hi.
  destruct (Nat.eq_dec i l) as [->|Hne]; [rewrite get_lp_set by exact Hl; exact Hlx|rewrite get_put_other by exact Hne; apply Hx, Hi].
Qed.

Lemma rollback_lp_extra n l x past ref snap older b st :
  lp_ok p x -> lp_extra n l x -> fst (base x) <= past -> drop_newer (x_logs x) past = (ref, snap) :: older ->
  lp_extra n l (mkLpx (firstn past (x_hist x)) b st ((ref, snap) :: older) (x_rem x) (x_epoch x)).
Proof.
  intros Hok Hx Hr0 Hdn. destruct (log_cut p x past ref snap older Hok Hdn) as (_ & _ & _ & _ & _ & Eb & _).
  unfold base in Eb. cbn [x_logs] in Eb. apply (lp_extra_sub n l x _ Hx); unfold lp_base, base; cbn [x_logs x_hist]; rewrite ?Eb.
  - destruct (proj1 Hx) as [H0|(marks & im & Ef & Hrest)]; [left; exact H0|right]. exists marks, im. split; [|exact Hrest].
    rewrite firstn_firstn. fold (base x). replace (Nat.min (fst (base x)) past) with (fst (base x)) by lia. exact Ef.
  - intros e. rewrite skipn_firstn_comm. apply in_firstn.
  - intros e. apply in_firstn.
Qed.

Hypothesis H_type : forall ev st e, In e (snd (handle p ev st)) -> (e_type e < LP_INIT_TYPE)%N.
Hypothesis H_dest : forall ev st e, In e (snd (handle p ev st)) -> (e_dest ev < p_lps p)%N -> (e_dest e < p_lps p)%N.

(* nothing that can arrive is ordered before an LP's LP_INIT message *)
Lemma not_before_init f s im : fl f s = 2%N -> tyok s ->
  e_type (wm_ev im) = LP_INIT_TYPE -> e_t (wm_ev im) = 0%N -> e_pl (wm_ev im) = [] -> wbefore f s im = false.
Proof.
  intros Hf Hty Ety Et Epl. unfold wbefore, before, rt_msg. cbn [m_t].
  rewrite Et. cbn [Z.of_N].
  destruct (Z.ltb_spec (Z.of_N (e_t (wm_ev s))) 0) as [H|_]; [lia|]. cbn [orb].
  destruct (Z.eqb (Z.of_N (e_t (wm_ev s))) 0); [|reflexivity]. cbn [andb].
  unfold before_ext, anti_bit. cbn [m_flags m_type m_plsize m_pl payload].
  unfold fl in Hf. rewrite Hf. cbn [Z.of_N Z.land Pos.land].
  change (Z.land 2 1) with 0%Z.
  set (ai := Z.land (Z.of_N (flag_of f (wm_id im))) 1).
  assert (Hai : (0 <= ai)%Z) by (unfold ai; apply Z.land_nonneg; right; lia).
  destruct (Z.eqb_spec 0 ai) as [_|_]; cbn [negb]; [|apply Z.ltb_ge; exact Hai].
  rewrite Ety, Epl. unfold tyok in Hty. cbn [length Z.of_nat].
  destruct (Z.eqb_spec (Z.of_N (e_type (wm_ev s))) (Z.of_N LP_INIT_TYPE)) as [E|_]; cbn [negb]; [lia|].
  apply Z.ltb_ge. lia.
Qed.

(* neither a straggler rollback nor the rollback of a cancellation reaches below the base: the base's entry is the LP's
   initialisation message, which no straggler precedes and whose reserved type no cancellation carries *)
Lemma straggler_ge_base f s x lastm : lp_ok p x -> lp_base x -> fl f s = 2%N -> tyok s ->
  last_proc (x_hist x) = Some lastm -> wbefore f s lastm = true ->
  fst (base x) <= straggler_index f s (x_hist x).
Proof.
  intros Hok Hb Hf Hty El Ew.
  destruct Hb as [H0|(marks & im & Ef & _ & Ety & Et & Epl)]; [lia|].
  destruct (base_init x marks im Hok Ef) as [Hlen Hn].
  destruct (straggler_index_spec f s (x_hist x) lastm El Ew) as [Habove _]. cbn zeta in Habove.
  destruct (Nat.le_gt_cases (fst (base x)) (straggler_index f s (x_hist x))) as [H|H]; [exact H|exfalso].
  assert (Hin : In (EProc im) (skipn (straggler_index f s (x_hist x)) (x_hist x))).
  { apply (in_skipn_le _ _ (length marks)); [lia|]. apply (nth_error_In _ 0). rewrite nth_error_skipn_add, Nat.add_0_r. exact Hn. }
  specialize (Habove im Hin). rewrite (not_before_init f s im Hf Hty Ety Et Epl) in Habove. discriminate.
Qed.

Lemma anti_ge_base a x k : lp_ok p x -> lp_base x -> tyok a -> anti_index a (x_hist x) = Some k -> fst (base x) <= k.
Proof.
  intros Hok Hb Hty Ea. destruct (anti_index_spec a _ _ Ea) as (_ & j & Hkj & Hnj & Hsent).
  pose proof (base_proc_index x j a Hok Hb Hnj) as Hj.
  destruct Hb as [H0|(marks & im & Ef & _ & Ety & _)]; [lia|]. destruct (base_init x marks im Hok Ef) as [Hlen Hn].
  destruct (Nat.eq_dec j (length marks)) as [->|Hne].
  - rewrite Hn in Hnj. injection Hnj as <-. unfold tyok in Hty. rewrite Ety in Hty. exfalso. exact (N.lt_irrefl _ Hty).
  - destruct (Nat.le_gt_cases (fst (base x)) k) as [H|H]; [exact H|exfalso].
    destruct (Hsent (length marks) ltac:(lia)) as (m' & Hm'). rewrite Hn in Hm'. discriminate.
Qed.

Lemma do_rollback_extra w l past :
  all_ok2 p w -> l < length (k_lps w) -> extra w -> fst (base (get_lp w l)) <= past -> extra (do_rollback p w l past).
Proof.
  intros Hok Hl [Hp Hx] Hr0. destruct (get_ok2 p w l Hok Hl) as [Hlok _].
  pose proof (drop_newer_some p _ past Hlok Hr0) as Hne. pose proof (do_rollback_pend p w l past) as Hpd.
  destruct (drop_newer (x_logs (get_lp w l)) past) as [|[ref snap] older] eqn:Hd; [congruence|].
  rewrite (do_rollback_unfold p w l past ref snap older Hd) in *. pose proof (undo_all_lps (skipn past (x_hist (get_lp w l))) w) as E1.
  set (w1 := fold_left undo_entry _ w) in *. destruct (Hx l Hl) as (Hb & Ht & Hdst & Hmk).
  apply extra_put; [rewrite E1; exact Hl| |rewrite E1; apply rollback_lp_extra; [exact Hlok|apply Hx, Hl|exact Hr0|exact Hd]].
  split; [|unfold get_lp; rewrite E1; exact Hx]. rewrite E1. intros m Hm. destruct (Hpd m Hm) as [Hin|Hin]; [exact (Hp m Hin)|].
  apply in_map_iff in Hin. destruct Hin as ([y|y] & <- & He); cbn [entry_msg]; [exact (Hmk y (in_skipn _ _ _ He))|].
  split; [exact (Ht y (in_skipn_le _ _ _ _ Hr0 He))|rewrite (Hdst y (in_skipn _ _ _ He)); exact Hl].
Qed.

Lemma forward_extra w l m : all_ok2 p w -> l < length (k_lps w) -> length (k_lps w) = N.to_nat (p_lps p) ->
  extra w -> tyok m -> N.to_nat (e_dest (wm_ev m)) = l -> extra (forward p ck w l m).
Proof.
  intros Hok Hl Hn [Hp Hx] Hty Hdm. rewrite forward_eq. cbn zeta. set (news := news_from (k_next w) _). set (x' := mkLpx _ _ _ _ _ _).
  assert (Hnews : forall y, In y news -> tyok y /\ N.to_nat (e_dest (wm_ev y)) < length (k_lps w)).
  { intros y Hy. apply (in_map wm_ev) in Hy. unfold news in Hy. rewrite news_ev in Hy.
    split; [exact (H_type _ _ _ Hy)|]. pose proof (H_dest _ _ _ Hy ltac:(lia)). lia. }
  destruct (Hx l Hl) as (Hb & Ht & Hdst & Hmk). set (x := get_lp w l) in *.
  destruct (get_ok2 p w l Hok Hl) as [Hlok _]. fold x in Hlok. pose proof (base_le_len p x Hlok) as Hble.
  assert (Eb : base x' = base x).
  { unfold base, x'. cbn [x_logs]. apply base_push. apply lp_ok_base in Hlok. apply Hlok. }
  apply (extra_put (sent_state w news) l x' Hl).
  - split; [|exact Hx]. intros y Hy. rewrite pend_sent in Hy. apply in_app_or in Hy. destruct Hy as [Hy|Hy]; [apply Hnews, in_rev, Hy|exact (Hp y Hy)].
  - unfold lp_extra, lp_base. rewrite Eb. cbn [x_hist x']. split; [|split; [|split]].
    + destruct Hb as [H0|(marks & im & Ef & Hrest)]; [left; exact H0|right]. exists marks, im. split; [|exact Hrest]. rewrite firstn_app_l by exact Hble. exact Ef.
    + intros y Hy. rewrite skipn_app_l in Hy by exact Hble. apply in_app_or in Hy. destruct Hy as [Hy|Hy]; [exact (Ht y Hy)|].
      apply in_procs in Hy. rewrite procs_app, procs_map_sent in Hy. destruct Hy as [<-|[]]. exact Hty.
    + intros y Hy. apply in_app_or in Hy. destruct Hy as [Hy|Hy]; [exact (Hdst y Hy)|].
      apply in_procs in Hy. rewrite procs_app, procs_map_sent in Hy. destruct Hy as [<-|[]]. exact Hdm.
    + intros y Hy. apply in_app_or in Hy. destruct Hy as [Hy|Hy]; [exact (Hmk y Hy)|].
      apply in_app_or in Hy. destruct Hy as [Hy|[Hy|[]]]; [|discriminate]. apply in_map_iff in Hy. destruct Hy as (z & Hz & Hin). injection Hz as ->. exact (Hnews y Hin).
Qed.

Record full (w : worker) : Prop := {
  f_ok : all_ok2 p w; f_good : good w; f_err : k_err w = false; f_once : once w [];
  f_extra : extra w; f_gvt : (k_gvt w <= k_lastgvt w)%Z }.

(* [w2]: the state in which process_msg looks at the flag word of the extracted message m *)
Record taken (w : worker) (m : wmsg) (w2 : worker) : Prop := {
  t_ok : all_ok2 p w2; t_good : good w2; t_err : k_err w2 = false;
  t_len : length (k_lps w2) = length (k_lps w);
  t_l : N.to_nat (e_dest (wm_ev m)) < length (k_lps w2);
  t_same : same_gvt w w2 /\ k_flags w2 = k_flags w /\ k_next w2 = k_next w;
  t_pend : Permutation (pend w) (m :: pend w2);
  t_ge : ge (k_gvt w2) m;
  t_ty : tyok m;
  t_loc : Loc (k_gvt w2) (k_flags w2) (m :: pend w2) (allprocs (k_lps w2)) (allmarks (k_lps w2)) (k_next w2);
  t_extra : extra w2;
  (* the histories: the other LPs are untouched, the LP of m may have lost a released prefix *)
  t_other : forall i, i <> N.to_nat (e_dest (wm_ev m)) -> get_lp w2 i = get_lp w i;
  t_hist : exists r, x_hist (get_lp w2 (N.to_nat (e_dest (wm_ev m)))) = skipn r (x_hist (get_lp w (N.to_nat (e_dest (wm_ev m)))))
}.

Lemma take_msg w m w1 : full w -> wq_extract w = (Some m, w1) -> taken w m (lazy_fossil_of w1 (N.to_nat (e_dest (wm_ev m)))).
Proof.
  intros [Hok Hg He HL [Hxp Hxl] _] E. set (l := N.to_nat (e_dest (wm_ev m))).
  pose proof (extract_good w Hg) as Hex. pose proof (wq_extract_perm w) as Hperm. destruct (extract_same w) as ((Elps & Eerr & Eg) & Ef & Enx & _).
  rewrite E in *. cbn [snd] in *. destruct Hex as [G1 Hgm].
  assert (Hmin : In m (pend w)) by (apply (Permutation_in _ (Permutation_sym Hperm)); left; reflexivity).
  destruct (Hxp m Hmin) as [Hty Hdl]. fold l in Hdl.
  assert (Ok1 : all_ok2 p w1) by exact (all_ok2_of_lps p _ _ Elps Hok).
  assert (Hl1 : l < length (k_lps w1)) by (rewrite Elps; exact Hdl).
  assert (HL1 : Loc (k_gvt w1) (k_flags w1) (m :: pend w1) (allprocs (k_lps w1)) (allmarks (k_lps w1)) (k_next w1)).
  { rewrite (proj1 Eg), Ef, Elps, Enx. eapply Loc_perm; [exact HL|exact Hperm|apply Permutation_refl..]. }
  assert (Hgm1 : ge (k_gvt w1) m) by (unfold ge; rewrite (proj1 Eg); exact Hgm).
  assert (X1 : extra w1).
  { unfold extra, get_lp. rewrite Elps. split; [|exact Hxl]. intros y Hy. apply Hxp, (Permutation_in _ (Permutation_sym Hperm)). right. exact Hy. }
  pose proof (lazy_fossil_ok2 p w1 l Ok1) as Ok2. pose proof (lazy_fossil_good w1 l G1) as G2. revert Ok2 G2.
  (* the LP has seen this GVT epoch already: nothing is collected, w2 = w1; otherwise fossil_once gives Loc and the shape of
     the history, fossil_same_gvt the frame, and the bullets follow the fields of [taken] in order *)
  unfold lazy_fossil_of. destruct (Nat.eqb (x_epoch (get_lp w1 l)) (k_epoch w1)); intros Ok2 G2.
  { constructor; try assumption; [rewrite Eerr; exact He|rewrite Elps; reflexivity|split; [exact Eg|split; assumption]|intros i _; unfold get_lp; rewrite Elps; reflexivity|].
    exists 0. unfold get_lp. rewrite Elps. reflexivity. }
  destruct (fossil_once w1 l (m :: pend w1) [] Ok1 (s_time _ G1) Hl1 (proj1 (proj2 X1 l Hl1)) HL1) as (F1 & F8 & F11).
  { intros y [<-|Hy]; [exact Hgm1|apply (s_pend _ G1), Hy]. }
  destruct (fossil_same_gvt w1 l) as (Fg & Ff & Fn & Fs & Fh & Fd & F6 & F10). set (w' := fossil_lp w1 l) in *.
  assert (Fp : pend w' = pend w1) by (unfold pend; rewrite Fs, Fh, Fd; reflexivity).
  assert (Hl' : l < length (k_lps w')) by (rewrite F6; exact Hl1).
  destruct (put_same_hist w' l (fix_bound (get_lp w' l)) Hl' (fix_bound_hist _)) as [Ep Em].
  assert (Xl' : lp_extra (length (k_lps w1)) l (get_lp w' l)).
  { destruct F11 as [->|(r & Eh & Hr & Hb0)]; [apply X1, Hl1|].
    apply (lp_extra_sub _ _ _ _ (proj2 X1 l Hl1)); [left; exact Hb0|rewrite Hb0, Eh; intros e0 He0; exact (in_skipn_le _ _ _ _ Hr He0)|rewrite Eh; intros e; apply in_skipn]. }
  constructor.
  - exact Ok2.
  - exact G2.
  - cbn [put_lp set_lps k_err]. rewrite F1, Eerr. exact He.
  - rewrite put_lp_length, F6, Elps. reflexivity.
  - rewrite put_lp_length. exact Hl'.
  - cbn [put_lp set_lps k_flags k_next]. rewrite Ff, Fn. destruct Fg as (A & B & C), Eg as (A' & B' & C'). repeat split; cbn [put_lp set_lps k_gvt k_lastgvt k_epoch]; congruence.
  - change (pend (put_lp w' _ _)) with (pend w'). rewrite Fp. exact Hperm.
  - unfold ge. cbn [put_lp set_lps k_gvt]. rewrite (proj1 Fg). exact Hgm1.
  - exact Hty.
  - rewrite Ep, Em. change (pend (put_lp w' _ _)) with (pend w'). cbn [put_lp set_lps k_gvt k_flags k_next]. rewrite Fp, (proj1 Fg), Ff, Fn. exact F8.
  - apply extra_put; [exact Hl'| |].
    + unfold extra. rewrite F6, Fp. split; [exact (proj1 X1)|]. intros i Hi. destruct (Nat.eq_dec i l) as [->|Hne]; [exact Xl'|rewrite (F10 i Hne); apply X1, Hi].
    + rewrite F6. apply fix_bound_extra, Xl'.
  - intros i Hi. rewrite get_put_other, (F10 i Hi) by exact Hi. unfold get_lp. rewrite Elps. reflexivity.
  - rewrite get_lp_set, fix_bound_hist by exact Hl'. destruct F11 as [->|(r & Eh & _)]; [exists 0|exists r; rewrite Eh]; unfold get_lp; rewrite Elps; reflexivity.
Qed.

(* the extracted message put back after the lazy collection: a state as good as the one before the extraction *)
Lemma taken_full w m w2 : full w -> taken w m w2 -> full (wq_insert w2 m).
Proof.
  intros F [Ok2 [S2 S3 S4] He2 Elen Hl ((Eg1 & Eg2 & _) & _) Hp Hgm Hty HL [Xp Xl] _ _]. constructor; try assumption.
  - constructor; [|exact S3|exact S4]. intros y [<-|Hy]; [exact Hgm|exact (S2 y Hy)].
  - split; [|exact Xl]. intros y [<-|Hy]; [split; [exact Hty|exact Hl]|exact (Xp y Hy)].
  - cbn [wq_insert k_gvt k_lastgvt]. rewrite Eg1, Eg2. exact (f_gvt _ F).
Qed.

Lemma cancel_index w m w2 : taken w m w2 -> fl (k_flags w2) m = 3%N ->
  exists past, anti_index m (x_hist (get_lp w2 (N.to_nat (e_dest (wm_ev m))))) = Some past /\
               fst (base (get_lp w2 (N.to_nat (e_dest (wm_ev m))))) <= past.
Proof.
  intros T Hf. set (l := N.to_nat (e_dest (wm_ev m))). pose proof (t_l _ _ _ T) as Hl. fold l in Hl.
  destruct (Loc_extract3 _ _ _ _ _ _ _ (t_loc _ _ _ T) Hf) as [Hin _]. apply in_allprocs_iff in Hin. destruct Hin as (l' & Hl' & Hm').
  destruct (proj2 (t_extra _ _ _ T) l' Hl') as (_ & _ & Hd' & _). rewrite <- (Hd' m Hm') in Hm'. fold l in Hm'.
  destruct (anti_index m (x_hist (get_lp w2 l))) as [past|] eqn:Ea; [|destruct (anti_index_total m _ Hm' Ea)].
  exists past. split; [reflexivity|]. destruct (get_ok2 p w2 l (t_ok _ _ _ T) Hl) as [Hlok _].
  exact (anti_ge_base m _ past Hlok (proj1 (proj2 (t_extra _ _ _ T) l Hl)) (t_ty _ _ _ T) Ea).
Qed.

Lemma process_msg_core w : full w -> length (k_lps w) = N.to_nat (p_lps p) ->
  k_err (process_msg p ck w) = false /\ once (process_msg p ck w) [] /\
  length (k_lps (process_msg p ck w)) = length (k_lps w) /\ extra (process_msg p ck w).
Proof.
  intros F Hn. destruct (wq_extract w) as [[m|] w1] eqn:E.
  2:{ (* nothing to extract: the shared list went into the heap *)
      unfold process_msg. rewrite E. rewrite (extract_none w w1 E). destruct F as [_ _ He HL [Hxp Hxl] _]. pose proof (transfer_perm w) as Hp.
      split; [exact He|]. split; [eapply Loc_perm; [exact HL|apply Permutation_sym, Hp|apply Permutation_refl..]|]. split; [reflexivity|].
      split; [intros y Hy; apply Hxp, (Permutation_in _ Hp), Hy|exact Hxl]. }
  pose proof (take_msg w m w1 F E) as T. set (l := N.to_nat (e_dest (wm_ev m))) in *. set (w2 := lazy_fossil_of w1 l) in *.
  destruct T as [Ok2 G2 He2 Elen2 Hl2 (Eg2 & _) _ Hgm Hty HL2 X2 _ _]. fold l in Hl2.
  destruct (l_pd _ _ _ _ _ _ HL2 m (or_introl eq_refl)) as [[Hf Hin]|[[Hf|Hf] Hnin]].
  - (* flag 3: the cancellation notice of a message this LP has processed *)
    rewrite (process_msg_flag3 p ck w m w1 E Hf). cbn zeta. fold l w2. set (w3 := set_flags w2 (flag_set (k_flags w2) (wm_id m) 5)).
    destruct (cancel_index w m w2 (take_msg w m w1 F E) Hf) as (past & Ea & Hbp). fold l in Ea, Hbp. change (get_lp w3 l) with (get_lp w2 l). rewrite Ea.
    destruct (Loc_extract3 _ _ _ _ _ _ _ HL2 Hf) as [_ HL3].
    assert (G3 : good w3) by (apply set_flags_good; exact G2).
    destruct (do_rollback_once w3 l past (tm m) [] Ok2 Hl2 (proj1 (anti_index_spec m _ _ Ea)) Hbp Hgm) as (R1 & R2);
      [apply anti_undone_ge; [apply (get_time w3 l G3 Hl2)|exact Ea]|exact HL3|].
    pose proof (do_rollback_extra w3 l past Ok2 Hl2 X2 Hbp) as X4.
    destruct (do_rollback_same_gvt p w3 l past) as (_ & _ & _ & _ & L4 & _). set (w4 := do_rollback p w3 l past) in *.
    assert (Hl4 : l < length (k_lps w4)) by (rewrite L4; exact Hl2).
    destruct (put_same_hist w4 l (fix_bound (get_lp w4 l)) Hl4 (fix_bound_hist _)) as [Epp Emm].
    split; [cbn [put_lp set_lps k_err]; rewrite R1; exact He2|]. split; [unfold once; rewrite Epp, Emm; exact R2|].
    split; [rewrite put_lp_length, L4; exact Elen2|]. apply extra_put; [exact Hl4|exact X4|apply fix_bound_extra, X4, Hl4].
  - (* flag 0: an ordinary message, possibly a straggler *)
    rewrite (process_msg_flag0 p ck w m w1 E Hf). cbn zeta. fold l w2. set (w3 := set_flags w2 (flag_set (k_flags w2) (wm_id m) 2)).
    pose proof (Loc_extract0 _ _ _ _ _ _ _ HL2 Hf) as HL3. set (x := get_lp w3 l).
    set (strag := match last_proc (x_hist x) with Some lastm => _ | None => false end).
    set (w4 := if strag then do_rollback p w3 l (straggler_index (k_flags w3) m (x_hist x)) else w3).
    assert (H4 : all_ok2 p w4 /\ k_err w4 = false /\ once w4 [m] /\ extra w4 /\ length (k_lps w4) = length (k_lps w2)).
    { unfold w4. destruct strag eqn:Es; [|split; [exact Ok2|split; [exact He2|split; [exact HL3|split; [exact X2|reflexivity]]]]].
      unfold strag in Es. destruct (last_proc (x_hist x)) as [lastm|] eqn:El; [|discriminate]. apply andb_true_iff in Es. destruct Es as [_ Ew].
      destruct (straggler_index_spec (k_flags w3) m (x_hist x) lastm El Ew) as [Habove _]. cbn zeta in Habove.
      destruct (get_ok2 p w3 l Ok2 Hl2) as [Hlok _]. fold x in Hlok.
      pose proof (straggler_ge_base (k_flags w3) m x lastm Hlok (proj1 (proj2 X2 l Hl2)) (fl_set_same _ m 2) Hty El Ew) as Hbk.
      destruct (straggler_index_bnd (k_flags w3) m (x_hist x)) as [Hbnd _]. set (k := straggler_index (k_flags w3) m (x_hist x)) in *.
      destruct (do_rollback_once w3 l k (tm m) [m] Ok2 Hl2 Hbnd Hbk Hgm) as (R1 & R2); [intros m' Hm'; apply (wbefore_le (k_flags w3)), Habove, Hm'|exact HL3|].
      split; [apply do_rollback_ok2; [exact Ok2|intros _; exact Hbnd]|]. split; [rewrite R1; exact He2|]. split; [exact R2|].
      split; [exact (do_rollback_extra w3 l k Ok2 Hl2 X2 Hbk)|apply (do_rollback_same_gvt p w3 l k)]. }
    destruct H4 as (Ok4 & He4 & HL4 & X4 & Elen4).
    assert (Hl4 : l < length (k_lps w4)) by (rewrite Elen4; exact Hl2).
    split; [rewrite (forward_err p ck); exact He4|]. split; [exact (forward_once w4 l m Hl4 HL4)|].
    split; [rewrite forward_eq, put_lp_length; cbn [sent_state k_lps]; rewrite Elen4; exact Elen2|].
    apply (forward_extra w4 l m Ok4 Hl4 ltac:(rewrite Elen4, Elen2; exact Hn) X4 Hty eq_refl).
  - (* flag 1: cancelled while pending: dropped *)
    rewrite (process_msg_flag1 p ck w m w1 E Hf). cbn zeta. fold l w2. set (w3 := set_flags w2 (flag_set (k_flags w2) (wm_id m) 3)).
    pose proof (Loc_extract1 _ _ _ _ _ _ _ HL2 Hf) as HL3.
    destruct (put_same_hist w3 l (fix_bound (get_lp w3 l)) Hl2 (fix_bound_hist _)) as [Epp Emm].
    split; [exact He2|]. split; [unfold once; rewrite Epp, Emm; exact HL3|]. split; [rewrite put_lp_length; exact Elen2|].
    apply extra_put; [exact Hl2|exact X2|apply fix_bound_extra, X2, Hl2].
Qed.

Definition gv (w : worker) : Z * Z := (k_gvt w, k_lastgvt w).

Lemma process_msg_full w : full w -> length (k_lps w) = N.to_nat (p_lps p) ->
  full (process_msg p ck w) /\ length (k_lps (process_msg p ck w)) = length (k_lps w).
Proof.
  intros Hf Hn. destruct (process_msg_core w Hf Hn) as (C1 & C2 & C3 & C4). destruct Hf as [Hok Hg He HL Hx Hgv].
  split; [|exact C3]. constructor; try assumption.
  - apply process_msg_ok2. exact Hok.
  - apply (process_msg_good p ck H_time); assumption.
  - destruct (process_msg_same_gvt p ck w) as (-> & -> & _). exact Hgv.
Qed.

Lemma full_moved w w' : full w -> moved w w' -> good w' -> full w'.
Proof.
  intros [Hok Hg He HL [Hxp Hxl] Hgv] (Hp & (El & Ee & Eg1 & Eg2 & _) & Ef & En) Hg'. constructor.
  - exact (all_ok2_of_lps p _ _ El Hok).
  - exact Hg'.
  - rewrite Ee. exact He.
  - unfold once. rewrite Eg1, Ef, El, En. eapply Loc_perm; [exact HL|exact Hp|apply Permutation_refl..].
  - unfold extra, get_lp. rewrite El. split; [intros y Hy; apply Hxp, (Permutation_in _ (Permutation_sym Hp) Hy)|exact Hxl].
  - rewrite Eg1, Eg2. exact Hgv.
Qed.
Lemma transfer_full w : full w -> full (wq_transfer w).
Proof. intros Hf. exact (full_moved w _ Hf (transfer_moved w) (transfer_good w (f_good _ Hf))). Qed.

Lemma hold_step_full w m w1 : full w -> wq_extract w = (Some m, w1) -> full (set_held w1 (k_held w1 ++ [Some m])).
Proof. intros F E. exact (full_moved w _ F (hold_step_moved w m w1 E) (hold_step_good w m w1 (f_good _ F) E)). Qed.
Lemma unhold_full i w : full w -> full (unhold i w).
Proof. intros F. exact (full_moved w _ F (unhold_moved i w) (unhold_good i w (f_good _ F))). Qed.
Lemma unhold_all_full w : full w -> full (unhold_all w).
Proof. intros F. exact (full_moved w _ F (unhold_all_moved w) (unhold_all_good w (f_good _ F))). Qed.

Lemma announce_full d w : full w -> full (announce d w).
Proof.
  intros Hf. pose proof (announce_good d w (f_good _ Hf)) as Hg. pose proof (transfer_full w Hf) as Hf1.
  unfold announce, wq_peek in *. set (w1 := wq_transfer w) in *.
  destruct (min_held (k_held w1) (match k_heap w1 with [] => None | m :: _ => Some (e_t (wm_ev m)) end)) as [t|]; [|exact Hf1].
  destruct (Z.ltb_spec (Z.of_N t - Z.of_N d) (k_lastgvt w1)) as [Hlt|Hge]; cbn [orb]; [exact Hf1|].
  destruct (Z.leb (Z.of_N t - Z.of_N d) 0); [exact Hf1|].
  destruct Hf1 as [Hok _ He1 HL Hx Hgv]. constructor; cbn [k_gvt k_lastgvt k_err k_lps]; try assumption; [|apply Z.le_refl].
  unfold once in *. cbn [k_gvt k_flags k_lps k_next]. eapply Loc_gvt; [exact HL|lia].
Qed.

Hypothesis H_init : forall me e, In e (snd (lp_init p me)) -> e_dest e = me /\ (e_type e < LP_INIT_TYPE)%N.

Definition ini (w : worker) : Prop := once w [] /\ extra w /\ k_err w = false /\ gv w = (0%Z, 0%Z).

Lemma lp_extra_mono n n' l x : n <= n' -> lp_extra n l x -> lp_extra n' l x.
Proof. intros Hn (A & B & C & D). repeat split; try assumption; destruct (D m H); [assumption|lia]. Qed.

Lemma init_lp_ini w : ini w -> ini (init_lp p w (length (k_lps w))).
Proof.
  intros (HL & [Hxp Hxl] & He & Hgv). set (l := length (k_lps w)). rewrite init_lp_eq. cbn zeta.
  pose proof (H_init (N.of_nat l)) as Hin. set (news := news_from _ (snd (lp_init p (N.of_nat l)))) in *.
  set (im := mkWm (k_next w) (mkEv (N.of_nat l) 0 LP_INIT_TYPE [])). set (x' := mkLpx _ _ _ _ _ _). set (w0 := mkWk _ _ _ _ _ _ _ _ _ _).
  assert (Hnews : forall y, In y news -> tyok y /\ N.to_nat (e_dest (wm_ev y)) = l).
  { intros y Hy. apply (in_map wm_ev) in Hy. unfold news in Hy. rewrite news_ev in Hy. destruct (Hin _ Hy) as [Hd Ht]. split; [exact Ht|rewrite Hd; apply Nat2N.id]. }
  assert (Epr : allprocs (k_lps w ++ [x']) = allprocs (k_lps w) ++ [im]).
  { unfold allprocs. rewrite flat_map_app. cbn [flat_map x_hist x']. rewrite procs_app, procs_map_sent, app_nil_r. reflexivity. }
  assert (Emk : allmarks (k_lps w ++ [x']) = allmarks (k_lps w) ++ news).
  { unfold allmarks. rewrite flat_map_app. cbn [flat_map x_hist x']. rewrite marks_app, marks_map_sent, !app_nil_r. reflexivity. }
  split; [|split; [|split; [exact He|exact Hgv]]].
  - apply (Loc_fresh_proc _ _ (mkEv (N.of_nat l) 0 LP_INIT_TYPE [])), (Loc_news _ _ (snd (lp_init p (N.of_nat l)))) in HL. fold news in HL.
    unfold once. cbn [set_lps k_gvt k_flags k_lps k_next sent_state w0]. change (pend (set_lps _ _)) with (pend (sent_state w0 news)).
    rewrite pend_sent, Epr, Emk. eapply Loc_perm; [exact HL|apply Permutation_refl|apply Permutation_cons_append|apply Permutation_app_comm].
  - unfold extra. cbn [set_lps k_lps]. rewrite app_length. cbn [length]. fold l. split.
    + intros y Hy. change (pend (set_lps _ _)) with (pend (sent_state w0 news)) in Hy. rewrite pend_sent in Hy. apply in_app_or in Hy.
      destruct Hy as [Hy|Hy]; [destruct (Hnews y (proj2 (in_rev _ _) Hy)) as [H1 H2]; split; [exact H1|lia]|]. destruct (Hxp y Hy) as [H1 H2]. fold l in H2. split; [exact H1|lia].
    + intros i Hi. unfold get_lp. cbn [set_lps k_lps]. destruct (Nat.lt_ge_cases i l) as [Hlt|Hge].
      * rewrite app_nth1 by exact Hlt. apply (lp_extra_mono l); [lia|]. apply Hxl. exact Hlt.
      * assert (i = l) by lia. subst i. rewrite app_nth2, Nat.sub_diag by (fold l; lia). cbn [nth].
        unfold lp_extra, lp_base, base. cbn [x_logs x_hist last fst x'].
        split; [right; exists (map ESent news), im; split; [apply firstn_all|]; split; [apply all_sent_map|repeat split; reflexivity]|].
        split; [rewrite skipn_all; intros m []|]. split.
        -- intros m Hm. apply in_procs in Hm. rewrite procs_app, procs_map_sent in Hm. destruct Hm as [<-|[]]. cbn. lia.
        -- intros m Hm. apply in_app_or in Hm. destruct Hm as [Hm|[Hm|[]]]; [|discriminate].
           apply in_map_iff in Hm. destruct Hm as (z & Hz & Hzin). injection Hz as ->. destruct (Hnews m Hzin) as [H1 H2]. split; [exact H1|lia].
Qed.

Lemma w_init_ini : ini (w_init p).
Proof.
  apply w_init_keeps; [|exact init_lp_ini].
  split; [apply Loc_empty|]. split; [split; [intros m []|intros l Hl; cbn in Hl; lia]|]. split; reflexivity.
Qed.

Theorem w_init_full : full (w_init p).
Proof.
  destruct w_init_ini as (HL & Hx & He & Hg). destruct (w_init_safe p) as [Hok Hgood]. unfold gv in Hg. injection Hg as Hg1 Hg2.
  constructor; try assumption; [apply Hgood; exact He|rewrite Hg1, Hg2; lia].
Qed.

Theorem worker_full (ops : list wop) :
  full (fold_left (wstep p ck) ops (w_init p)) /\ length (k_lps (fold_left (wstep p ck) ops (w_init p))) = N.to_nat (p_lps p).
Proof.
  apply (script_keeps p ck (fun w => full w /\ length (k_lps w) = N.to_nat (p_lps p))).
  - intros w [F Hn]. destruct (process_msg_full w F Hn) as [F' Hn']. split; [exact F'|rewrite Hn'; exact Hn].
  - intros w [F Hn]. split; [apply transfer_full, F|exact Hn].
  - intros w m w1 [F Hn] E. split; [exact (hold_step_full w m w1 F E)|]. rewrite (proj1 (proj1 (proj2 (hold_step_moved w m w1 E)))). exact Hn.
  - intros i w [F Hn]. split; [apply unhold_full, F|]. rewrite (proj1 (proj1 (proj2 (unhold_moved i w)))). exact Hn.
  - intros w [F Hn]. split; [apply unhold_all_full, F|]. rewrite unhold_all_lps. exact Hn.
  - intros d w [F Hn]. split; [apply announce_full, F|rewrite (proj1 (announce_lps_err d w)); exact Hn].
  - split; [exact w_init_full|apply w_init_length].
Qed.

End OnceProofs.
