(* The termination hooks process.c calls (TW/WorkerTerm.v) are legal operations of the termination model (TW/Term.v) in every script:
   the accounting invariant of termination.c therefore holds along every execution of the worker model, a thread's vote is sound, and the
   ghost history of the termination model IS the worker's history: the timestamps recorded for an LP end with those of the entries
   the LP retains (what precedes them was released by fossil collection).  In particular a rollback undoes, in the termination
   accounting, exactly the processed entries process.c removes from the history, and all of them are at or after the time passed
   to termination_on_lp_rollback. *)
From Coq Require Import List ZArith NArith PArith Bool Arith Lia Sorted Permutation.
From RS Require Import TW.App TW.Worker TW.WorkerProofs TW.WorkerSafety TW.WorkerOnce TW.WorkerOnceProofs TW.WorkerOnceApp TW.WorkerAbs.
From RS Require TW.Term.
From RS Require Import TW.WorkerTerm.
Import ListNotations.

Lemma skipn_tail {A} (a c : list A) : skipn (length (a ++ c) - length c) (a ++ c) = c.
Proof. rewrite app_length. replace (length a + length c - length c) with (length a) by lia. rewrite skipn_app, skipn_all, Nat.sub_diag. reflexivity. Qed.
Lemma firstn_head {A} (a c : list A) : firstn (length (a ++ c) - length c) (a ++ c) = a.
Proof. rewrite app_length. replace (length a + length c - length c) with (length a) by lia. rewrite firstn_app, firstn_all, Nat.sub_diag, firstn_O, app_nil_r. reflexivity. Qed.

Definition notinit (y : wmsg) : bool := negb (N.eqb (e_type (wm_ev y)) LP_INIT_TYPE).
Definition P (h : list entry) : list wmsg := filter notinit (procs_of h).

Lemma P_app a b : P (a ++ b) = P a ++ P b.
Proof. unfold P. rewrite procs_app, filter_app. reflexivity. Qed.
Lemma P_sent ms : P (map ESent ms) = [].
Proof. induction ms as [|m ms IH]; [reflexivity|exact IH]. Qed.
Lemma nprocs_procs es : nprocs es = length (procs_of es).
Proof. unfold nprocs. induction es as [|e es IH]; [reflexivity|]. destruct e; cbn; [exact IH|rewrite IH; reflexivity]. Qed.
Lemma P_all es : (forall y, In (EProc y) es -> tyok y) -> P es = procs_of es.
Proof.
  intros H. unfold P. assert (G : forall y, In y (procs_of es) -> notinit y = true).
  { intros y Hy. apply in_procs in Hy. specialize (H y Hy). unfold tyok in H. unfold notinit. apply negb_true_iff. apply N.eqb_neq. lia. }
  induction (procs_of es) as [|y r IH]; [reflexivity|]. cbn [filter]. rewrite (G y (or_introl eq_refl)). f_equal. apply IH. intros z Hz. apply G. right. exact Hz.
Qed.
Lemma P_split h k : P h = P (firstn k h) ++ P (skipn k h).
Proof. rewrite <- P_app, firstn_skipn. reflexivity. Qed.

Section TermProofs.
Variable p : prog.
Variable ck : nat.
Variable TMAX : Z.
Hypothesis TMAX_pos : (0 < TMAX)%Z.
Hypothesis Htypes : types_okb p = true.

Notation n := (N.to_nat (p_lps p)).

(* the ghost history of the termination model ends with the worker's retained history *)
Definition GH (w : worker) (ts : Term.tstate) : Prop :=
  forall l, l < n -> exists pre, map fst (nth l (Term.hist ts) []) = pre ++ map ztm (P (x_hist (get_lp w l))).

Record TI (s : tw) : Prop := {
  ti_full : full p (tw_w s);
  ti_len : length (k_lps (tw_w s)) = n;
  ti_inv : Term.Inv TMAX (tw_t s);
  ti_n : length (Term.term (tw_t s)) = n;
  ti_gh : tw_ovf s = false -> GH (tw_w s) (tw_t s)
}.

Lemma step_term_len s o : length (Term.term (Term.step TMAX s o)) = length (Term.term s).
Proof.
  destruct o as [lp t pr|lp t k|g tend]; cbn [Term.step].
  - unfold Term.proc. destruct (0 <=? nth lp (Term.term s) (-1))%Z; cbn [Term.term]; [reflexivity|apply Term.upd_length].
  - unfold Term.rollback. cbn [Term.term]. apply Term.upd_length.
  - unfold Term.gvt. destruct (Term.votes s g tend); reflexivity.
Qed.
Lemma proc_hist s lp t pr : Term.hist (Term.proc s lp t pr) = Term.upd (Term.hist s) lp (nth lp (Term.hist s) [] ++ [(t, pr)]).
Proof. unfold Term.proc. destruct (0 <=? nth lp (Term.term s) (-1))%Z; reflexivity. Qed.
Lemma rb_hist s lp t k : Term.hist (Term.rollback TMAX s lp t k) =
  Term.upd (Term.hist s) lp (firstn (length (nth lp (Term.hist s) []) - k) (nth lp (Term.hist s) [])).
Proof. reflexivity. Qed.

(* undoing the last k entries: legality and the new ghost, given that the ghost ends with [A ++ C], C being the k undone entries *)
Lemma rb_step ts l t (pre A C : list Z) :
  Term.Inv TMAX ts -> l < length (Term.term ts) -> (0 <= t < TMAX)%Z ->
  map fst (nth l (Term.hist ts) []) = (pre ++ A) ++ C -> (forall c, In c C -> (t <= c)%Z) ->
  Term.legal TMAX ts (Term.Rb l t (length C)) /\
  map fst (nth l (Term.hist (Term.step TMAX ts (Term.Rb l t (length C)))) []) = pre ++ A /\
  (forall i, i <> l -> nth i (Term.hist (Term.step TMAX ts (Term.Rb l t (length C)))) [] = nth i (Term.hist ts) []).
Proof.
  intros I Hl Ht E HC. set (H := nth l (Term.hist ts) []) in *.
  assert (Hlen : length H = length ((pre ++ A) ++ C)) by (rewrite <- E, map_length; reflexivity).
  split; [|split].
  - cbn [Term.legal]. split; [exact Hl|]. split; [exact Ht|]. fold H. split; [rewrite Hlen, app_length; lia|].
    intros e He. apply HC. assert (Hin : In (fst e) (map fst (skipn (length H - length C) H))) by (apply in_map; exact He).
    rewrite <- skipn_map, E, Hlen, skipn_tail in Hin. exact Hin.
  - cbn [Term.step]. rewrite rb_hist. rewrite Term.nth_upd_eq by (rewrite (Term.i_len TMAX ts I); exact Hl). fold H.
    rewrite <- firstn_map, E, Hlen, firstn_head. reflexivity.
  - intros i Hi. cbn [Term.step]. rewrite rb_hist. apply Term.nth_upd_neq. exact Hi.
Qed.

Lemma proc_step ts l t pr (G : list Z) :
  Term.Inv TMAX ts -> l < length (Term.term ts) -> (0 <= t < TMAX)%Z ->
  map fst (nth l (Term.hist ts) []) = G ->
  Term.legal TMAX ts (Term.Proc l t pr) /\
  map fst (nth l (Term.hist (Term.step TMAX ts (Term.Proc l t pr))) []) = G ++ [t] /\
  (forall i, i <> l -> nth i (Term.hist (Term.step TMAX ts (Term.Proc l t pr))) [] = nth i (Term.hist ts) []).
Proof.
  intros I Hl Ht E. split; [split; assumption|]. cbn [Term.step]. rewrite proc_hist. split.
  - rewrite Term.nth_upd_eq by (rewrite (Term.i_len TMAX ts I); exact Hl). rewrite map_app, E. reflexivity.
  - intros i Hi. apply Term.nth_upd_neq. exact Hi.
Qed.

Lemma rollback_hist w l past : all_ok2 p w -> l < length (k_lps w) -> fst (base (get_lp w l)) <= past ->
  x_hist (get_lp (do_rollback p w l past) l) = firstn past (x_hist (get_lp w l)).
Proof.
  intros Hok Hl Hb. destruct (get_ok2 p w l Hok Hl) as [Hlok _]. pose proof (drop_newer_some p (get_lp w l) past Hlok Hb) as Hne.
  destruct (drop_newer (x_logs (get_lp w l)) past) as [|[ref snap] older] eqn:Hd; [congruence|].
  rewrite (do_rollback_unfold p w l past ref snap older Hd), get_lp_set by (rewrite undo_all_lps; exact Hl). reflexivity.
Qed.

Lemma run_term_len os : forall s, length (Term.term (Term.run TMAX s os)) = length (Term.term s).
Proof. induction os as [|o r IH]; intros s; cbn [Term.run]; [reflexivity|]. rewrite IH. apply step_term_len. Qed.

(* termination_on_lp_rollback for a rollback of LP l to index k at time t, if there is one ([b]): the hook is legal, and the ghost of
   LP l loses exactly the processed entries the rollback removes from the history, so it still ends with the retained ones *)
Lemma rollback_ghost (b : bool) w ts l t pre k :
  all_ok2 p w -> l < length (k_lps w) -> Term.Inv TMAX ts -> l < length (Term.term ts) ->
  map fst (nth l (Term.hist ts) []) = pre ++ map ztm (P (x_hist (get_lp w l))) ->
  (b = true -> (0 <= t < TMAX)%Z /\ fst (base (get_lp w l)) <= k /\ bnd (x_hist (get_lp w l)) k /\
               forall y, In (EProc y) (skipn k (x_hist (get_lp w l))) -> tyok y /\ (t <= ztm y)%Z) ->
  let os := if b then [Term.Rb l t (nprocs (skipn k (x_hist (get_lp w l))))] else [] in
  let w' := if b then do_rollback p w l k else w in
  Term.all_legal TMAX ts os /\ Term.Inv TMAX (Term.run TMAX ts os) /\
  map fst (nth l (Term.hist (Term.run TMAX ts os)) []) = pre ++ map ztm (P (x_hist (get_lp w' l))) /\
  (forall i, i <> l -> nth i (Term.hist (Term.run TMAX ts os)) [] = nth i (Term.hist ts) [] /\ get_lp w' i = get_lp w i) /\
  length (k_lps w') = length (k_lps w) /\ all_ok2 p w'.
Proof.
  intros Ok Hl I Hlt Eg Hb. destruct b; cbn zeta.
  - destruct (Hb eq_refl) as (Ht & Hk & Hbnd & Hund). set (h := x_hist (get_lp w l)) in *.
    assert (EP : P (skipn k h) = procs_of (skipn k h)) by (apply P_all; intros y Hy; apply Hund, Hy).
    destruct (rb_step ts l t pre (map ztm (P (firstn k h))) (map ztm (P (skipn k h))) I Hlt Ht) as (Lg & Eh & Ho).
    { rewrite Eg, (P_split h k), map_app, app_assoc. reflexivity. }
    { intros c Hc. apply in_map_iff in Hc. destruct Hc as (y & <- & Hy). rewrite EP in Hy. apply Hund, in_procs, Hy. }
    rewrite map_length, EP, <- nprocs_procs in Lg, Eh, Ho. destruct (do_rollback_same_gvt p w l k) as (_ & _ & _ & _ & R3 & R2).
    cbn [Term.all_legal Term.run]. split; [split; [exact Lg|exact Logic.I]|]. split; [apply (Term.step_inv TMAX TMAX_pos); assumption|].
    split; [rewrite Eh, (rollback_hist w l k Ok Hl Hk); reflexivity|]. split; [intros i Hi; split; [exact (Ho i Hi)|exact (R2 i Hi)]|].
    split; [exact R3|]. apply do_rollback_ok2; [exact Ok|intros _; exact Hbnd].
  - split; [exact Logic.I|]. split; [exact I|]. split; [exact Eg|]. split; [intros i _; split; reflexivity|]. split; [reflexivity|exact Ok].
Qed.

Lemma GH_lps w w' ts : k_lps w' = k_lps w -> GH w ts -> GH w' ts.
Proof. intros E H l Hl. unfold get_lp. rewrite E. apply H. exact Hl. Qed.

(* the hooks, by the flag word the extracted message carries (as for process_msg itself) *)
Lemma term_ops_flag w m w1 : wq_extract w = (Some m, w1) ->
  let l := N.to_nat (e_dest (wm_ev m)) in let w2 := lazy_fossil_of w1 l in
  let h2 := x_hist (get_lp w2 l) in
  (fl (k_flags w2) m = 3%N -> msg_term_ops p ck w = match anti_index m h2 with Some past => [Term.Rb l (ztm m) (nprocs (skipn past h2))] | None => [] end) /\
  (fl (k_flags w2) m = 1%N -> msg_term_ops p ck w = []) /\
  (fl (k_flags w2) m = 0%N ->
   let f3 := flag_set (k_flags w2) (wm_id m) 2 in
   let strag := match last_proc h2 with Some lastm => (Z.of_N (e_t (wm_ev m)) <=? x_bound (get_lp w2 l))%Z && wbefore f3 m lastm | None => false end in
   msg_term_ops p ck w = (if strag then [Term.Rb l (ztm m) (nprocs (skipn (straggler_index f3 m h2) h2))] else []) ++
                         [Term.Proc l (ztm m) (can_end p (e_dest (wm_ev m)) (x_st (get_lp (process_msg p ck w) l)))]).
Proof.
  intros E l w2 h2. unfold msg_term_ops. rewrite E. fold l. fold (lazy_fossil_of w1 l). fold w2. unfold flag_add, fl.
  repeat split; intros Hf; rewrite Hf; reflexivity.
Qed.

Lemma ops_spec w ts : full p w -> length (k_lps w) = n -> Term.Inv TMAX ts -> length (Term.term ts) = n ->
  forallb (op_time_ok TMAX) (msg_term_ops p ck w) = true -> GH w ts ->
  Term.all_legal TMAX ts (msg_term_ops p ck w) /\ GH (process_msg p ck w) (Term.run TMAX ts (msg_term_ops p ck w)).
Proof.
  intros F Hn I Ht Htime Hgh.
  destruct (wq_extract w) as [[m|] w1] eqn:E.
  2:{ unfold msg_term_ops, process_msg. rewrite E. split; [exact Logic.I|]. pose proof (extract_lps w) as El. rewrite E in El. exact (GH_lps w w1 ts El Hgh). }
  pose proof (app_take_msg p ck w m w1 F E) as T. destruct (term_ops_flag w m w1 E) as (O3 & O1 & O0). cbn zeta in O3, O1, O0.
  set (l := N.to_nat (e_dest (wm_ev m))) in *. set (w2 := lazy_fossil_of w1 l) in *.
  destruct T as [Ok2 G2 _ Elen2 Hl2 _ _ Hgm Hty HL2 [_ Hx2] Hoth2 (r & Eh2)]. fold l in Hl2, Hoth2, Eh2.
  assert (Hln : l < n) by (rewrite <- Hn, <- Elen2; exact Hl2).
  assert (Hltt : l < length (Term.term ts)) by (rewrite Ht; exact Hln).
  (* the ghost of LP l against the history after the lazy collection *)
  destruct (Hgh l Hln) as (pre0 & Egh0). set (h2 := x_hist (get_lp w2 l)) in *.
  assert (Egh : map fst (nth l (Term.hist ts) []) = (pre0 ++ map ztm (P (firstn r (x_hist (get_lp w l))))) ++ map ztm (P h2)).
  { rewrite Egh0, (P_split (x_hist (get_lp w l)) r), map_app, <- Eh2, app_assoc. reflexivity. }
  set (pre := pre0 ++ map ztm (P (firstn r (x_hist (get_lp w l))))) in *.
  assert (Hoth : forall i, i <> l -> i < n -> exists pre, map fst (nth i (Term.hist ts) []) = pre ++ map ztm (P (x_hist (get_lp w2 i)))) by (intros i Hi Hin; rewrite (Hoth2 i Hi); apply Hgh, Hin).
  destruct (get_ok2 p w2 l Ok2 Hl2) as [Hlok2 _]. destruct (Hx2 l Hl2) as (Hbase2 & Htyp2 & _ & _).
  assert (Htime2 : lp_time (get_lp w2 l)) by (apply get_time; assumption).
  assert (Hund : forall k y, fst (base (get_lp w2 l)) <= k -> In (EProc y) (skipn k h2) -> tyok y) by (intros k y Hk Hy; exact (Htyp2 y (in_skipn_le _ _ _ _ Hk Hy))).
  assert (Htz : (0 <= ztm m)%Z) by (unfold ztm; lia).
  destruct (l_pd _ _ _ _ _ _ HL2 m (or_introl eq_refl)) as [[Hf Hin]|[[Hf|Hf] Hnin]].
  - (* the notice of a processed message: a rollback to the start of its group *)
    rewrite (O3 Hf) in Htime |- *. rewrite (process_msg_flag3 p ck w m w1 E Hf). cbn zeta. fold l w2. set (w3 := set_flags w2 _).
    destruct (cancel_index p w m w2 (app_take_msg p ck w m w1 F E) Hf) as (past & Ea & Hbp). fold l h2 in Ea, Hbp. change (x_hist (get_lp w3 l)) with h2. rewrite Ea in Htime |- *.
    cbn [forallb op_time_ok andb] in Htime. rewrite andb_true_r in Htime. apply Z.ltb_lt in Htime.
    destruct (rollback_ghost true w3 ts l (ztm m) pre past Ok2 Hl2 I Hltt Egh) as (Lg & _ & Eh' & Ho' & L4 & _).
    { intros _. split; [exact (conj Htz Htime)|]. split; [exact Hbp|]. split; [exact (proj1 (anti_index_spec m h2 past Ea))|]. intros y Hy.
      split; [exact (Hund past y Hbp Hy)|]. apply N2Z.inj_le, (anti_undone_ge h2 past m (proj1 Htime2) Ea), Hy. }
    cbn zeta in Lg, Eh', Ho', L4. change (x_hist (get_lp w3 l)) with h2 in Lg, Eh', Ho'. split; [exact Lg|]. set (w4 := do_rollback p w3 l past) in *.
    intros i Hi. destruct (Nat.eq_dec i l) as [->|Hne].
    + exists pre. rewrite Eh', get_lp_set, fix_bound_hist by (rewrite L4; exact Hl2). reflexivity.
    + destruct (Ho' i Hne) as [E1 E2]. rewrite E1, get_put_other, E2 by exact Hne. exact (Hoth i Hne Hi).
  - (* an ordinary message: rollback if it is a straggler, then forward execution *)
    rewrite (O0 Hf) in Htime |- *. rewrite (process_msg_flag0 p ck w m w1 E Hf). cbn zeta in *. fold l w2.
    set (w3 := set_flags w2 (flag_set (k_flags w2) (wm_id m) 2)) in *. change (x_hist (get_lp w3 l)) with h2 in *.
    change (k_flags w3) with (flag_set (k_flags w2) (wm_id m) 2) in *. set (f3 := flag_set (k_flags w2) (wm_id m) 2) in *.
    set (strag := match last_proc h2 with Some lastm => _ | None => false end) in *. set (sidx := straggler_index f3 m h2) in *.
    rewrite forallb_app in Htime. apply andb_true_iff in Htime. destruct Htime as [_ Htm]. cbn [forallb op_time_ok] in Htm. rewrite andb_true_r in Htm. apply Z.ltb_lt in Htm.
    destruct (rollback_ghost strag w3 ts l (ztm m) pre sidx Ok2 Hl2 I Hltt Egh) as (Lrb & I1 & Eg1 & Ho1 & L4 & Ok4).
    { intros Es. unfold strag in Es. destruct (last_proc h2) as [lastm|] eqn:Elast; [|discriminate]. apply andb_true_iff in Es. destruct Es as [_ Ew].
      destruct (straggler_index_spec f3 m h2 lastm Elast Ew) as [Habove _].
      pose proof (straggler_ge_base p f3 m (get_lp w2 l) lastm Hlok2 Hbase2 (fl_set_same _ m 2) Hty Elast Ew) as Hbk.
      split; [exact (conj Htz Htm)|]. split; [exact Hbk|]. split; [apply straggler_index_bnd|]. intros y Hy.
      split; [exact (Hund _ y Hbk Hy)|]. apply N2Z.inj_le, (wbefore_le f3), Habove, Hy. }
    cbn zeta in Lrb, I1, Eg1, Ho1, L4, Ok4. change (x_hist (get_lp w3 l)) with h2 in *. fold sidx in Lrb, I1, Eg1, Ho1.
    set (os := if strag then [Term.Rb l (ztm m) (nprocs (skipn sidx h2))] else []) in *. set (w4 := if strag then do_rollback p w3 l sidx else w3) in *.
    assert (Hl4 : l < length (k_lps w4)) by (rewrite L4; exact Hl2).
    destruct (forward_exact p ck w4 l m Hl4 (proj1 (get_ok2 p w4 l Ok4 Hl4))) as (W1 & W2 & _). cbn zeta in W1, W2.
    set (pr := can_end p (e_dest (wm_ev m)) _).
    destruct (proc_step (Term.run TMAX ts os) l (ztm m) pr _ I1 ltac:(rewrite run_term_len; exact Hltt) (conj Htz Htm) Eg1) as (Lp & Eh'' & Ho'').
    assert (Erun : Term.run TMAX ts (os ++ [Term.Proc l (ztm m) pr]) = Term.step TMAX (Term.run TMAX ts os) (Term.Proc l (ztm m) pr)) by (unfold os; destruct strag; reflexivity).
    split.
    + (* legality of the whole list *)
      unfold os in *. destruct strag; cbn [app Term.all_legal Term.run] in *; [destruct Lrb as [Lr _]; split; [exact Lr|]|]; (split; [exact Lp|exact Logic.I]).
    + rewrite Erun. intros i Hi. destruct (Nat.eq_dec i l) as [->|Hne].
      * exists pre. rewrite Eh'', W1, !P_app, P_sent. cbn [app]. rewrite map_app, app_assoc. f_equal.
        unfold P. cbn [procs_of flat_map app filter]. assert (En : notinit m = true) by (unfold notinit; apply negb_true_iff; apply N.eqb_neq; unfold tyok in Hty; lia).
        rewrite En. reflexivity.
      * destruct (Ho1 i Hne) as [E1 E2]. rewrite (Ho'' i Hne), E1, (W2 i Hne), E2. exact (Hoth i Hne Hi).
  - (* cancelled while pending: dropped, no hook *)
    rewrite (O1 Hf). rewrite (process_msg_flag1 p ck w m w1 E Hf). cbn zeta. fold l w2. split; [exact Logic.I|]. cbn [Term.run].
    intros i Hi. destruct (Nat.eq_dec i l) as [->|Hne].
    + exists pre. rewrite get_lp_set, fix_bound_hist by exact Hl2. exact Egh.
    + rewrite get_put_other by exact Hne. exact (Hoth i Hne Hi).
Qed.

Lemma tprocess_TI s : TI s -> TI (tprocess p ck TMAX s).
Proof.
  intros [F Hn I Ht Hgh]. unfold tprocess. destruct (app_process_msg_full p ck Htypes (tw_w s) F Hn) as [F' Hn'].
  destruct (tw_ovf s) eqn:Eo; cbn [negb andb].
  - constructor; cbn [tw_w tw_t tw_ovf]; try assumption; [rewrite Hn'; exact Hn|discriminate].
  - destruct (forallb (op_time_ok TMAX) (msg_term_ops p ck (tw_w s))) eqn:Eb.
    + destruct (ops_spec (tw_w s) (tw_t s) F Hn I Ht Eb (Hgh eq_refl)) as [Hleg Hgh'].
      constructor; cbn [tw_w tw_t tw_ovf]; [exact F'|rewrite Hn'; exact Hn|apply (Term.run_inv TMAX TMAX_pos); assumption|rewrite run_term_len; exact Ht|intros _; exact Hgh'].
    + constructor; cbn [tw_w tw_t tw_ovf]; try assumption; [rewrite Hn'; exact Hn|discriminate].
Qed.

Lemma announce_cases d w : k_epoch (announce d w) = k_epoch w \/ (0 < k_gvt (announce d w))%Z.
Proof.
  unfold announce, wq_peek. destruct (min_held _ _) as [t|]; [|left; reflexivity].
  destruct ((Z.of_N t - Z.of_N d <? k_lastgvt (wq_transfer w))%Z || (Z.of_N t - Z.of_N d <=? 0)%Z) eqn:Ec; [left; reflexivity|right].
  apply orb_false_iff in Ec. destruct Ec as [_ Ec]. apply Z.leb_gt in Ec. cbn [k_gvt]. exact Ec.
Qed.

Lemma titer_TI k : forall s, TI s -> TI (titer p ck TMAX k s).
Proof. induction k as [|k IH]; intros s H; cbn [titer]; [exact H|]. apply IH. apply tprocess_TI. exact H. Qed.

Lemma move_TI s w' : TI s -> full p w' -> k_lps w' = k_lps (tw_w s) -> TI (mkTw w' (tw_t s) (tw_ovf s)).
Proof.
  intros [F Hn I Ht Hgh] F' E. constructor; cbn [tw_w tw_t tw_ovf]; try assumption; [rewrite E; exact Hn|].
  intros Eo. apply (GH_lps (tw_w s)); [exact E|apply Hgh; exact Eo].
Qed.

Lemma trun_out_TI fuel : forall s, TI s -> TI (trun_out p ck TMAX fuel s).
Proof.
  induction fuel as [|fuel IH]; intros s H; cbn [trun_out]; [exact H|].
  unfold wq_peek. assert (H1 : TI (mkTw (wq_transfer (tw_w s)) (tw_t s) (tw_ovf s))) by (apply move_TI; [exact H|apply transfer_full; exact (ti_full s H)|reflexivity]).
  destruct (k_heap (wq_transfer (tw_w s))); [exact H1|]. apply IH. apply tprocess_TI. exact H1.
Qed.

Lemma twstep_TI s o : TI s -> TI (twstep p ck TMAX s o).
Proof.
  intros H. pose proof (ti_full s H) as F.
  assert (HA : TI (mkTw (unhold_all (tw_w s)) (tw_t s) (tw_ovf s))) by (apply (move_TI s _ H (unhold_all_full p _ F)), unhold_all_lps).
  destruct o as [k|k|i| |d|fuel]; cbn [twstep].
  - apply titer_TI. exact H.
  - clear HA. revert s H F. induction k as [|k IH]; intros s H F; cbn [hold]; [destruct s; exact H|].
    destruct (wq_extract (tw_w s)) as [[m|] w1] eqn:E.
    + pose proof (move_TI s _ H (hold_step_full p _ m w1 F E) (proj1 (proj1 (proj2 (hold_step_moved _ m w1 E))))) as H1. exact (IH _ H1 (ti_full _ H1)).
    + rewrite (extract_none _ _ E). exact (move_TI s _ H (transfer_full p _ F) eq_refl).
  - apply (move_TI s _ H (unhold_full p i _ F)), (unhold_moved i (tw_w s)).
  - exact HA.
  - pose proof (announce_full p d (tw_w s) F) as F'. destruct (announce_lps_err d (tw_w s)) as [E _]. destruct H as [_ Hn I Ht Hgh].
    pose proof (announce_cases d (tw_w s)) as Hac.
    constructor; cbn [tw_w tw_t tw_ovf].
    + exact F'.
    + rewrite E. exact Hn.
    + destruct (Nat.eqb_spec (k_epoch (announce d (tw_w s))) (k_epoch (tw_w s))) as [Ee|Ene]; [exact I|]. apply (Term.step_inv TMAX TMAX_pos); [exact I|]. cbn [Term.legal].
      destruct Hac as [Hc|Hc]; [contradiction|lia].
    + destruct (Nat.eqb _ _); [exact Ht|]. rewrite step_term_len. exact Ht.
    + intros Eo. apply (GH_lps (tw_w s)); [exact E|]. specialize (Hgh Eo). destruct (Nat.eqb _ _); [exact Hgh|].
      cbn [Term.step]. unfold Term.gvt. destruct (Term.votes _ _ _); exact Hgh.
  - apply trun_out_TI. exact HA.
Qed.

(* every hook of a process_msg call carries the timestamp of the extracted message, which is at or above the worker's GVT: the entries a
   vote at a value g <= GVT relies on (recorded below g) are never undone by a later rollback *)
Lemma term_ops_at_or_above_gvt w : full p w -> forall o, In o (msg_term_ops p ck w) ->
  match o with Term.Proc _ t _ => (k_gvt w <= t)%Z | Term.Rb _ t _ => (k_gvt w <= t)%Z | Term.Gvt _ _ => True end.
Proof.
  intros F o. pose proof (extract_good w (f_good p w F)) as Hex. unfold msg_term_ops.
  destruct (wq_extract w) as [[m|] w1]; [|intros []]. destruct Hex as (_ & Hgm). unfold ge in Hgm.
  assert (Hz : (k_gvt w <= ztm m)%Z) by (unfold ztm; exact Hgm).
  destruct (flag_add _ _ _) as [fo f]. destruct (has fo FLAG_ANTI).
  - destruct (N.eqb fo (FLAG_ANTI + FLAG_PROC)); [|intros []]. destruct (anti_index _ _); [|intros []]. intros [<-|[]]. exact Hz.
  - intros Hin. apply in_app_or in Hin. destruct Hin as [Hin|[<-|[]]]; [|exact Hz].
    destruct (match last_proc _ with Some _ => _ | None => false end); [destruct Hin as [<-|[]]; exact Hz|destruct Hin].
Qed.

Lemma tw_init_TI : TI (tw_init p TMAX).
Proof.
  pose proof (app_init_full p Htypes) as F. pose proof (w_init_length p) as Hn. unfold tw_init. constructor; cbn [tw_w tw_t tw_ovf].
  - exact F.
  - exact Hn.
  - apply (Term.init_inv TMAX TMAX_pos).
  - unfold Term.t_init. cbn [Term.term]. rewrite !map_length, seq_length. exact Hn.
  - intros _ l Hl. exists []. cbn [app]. unfold Term.t_init. cbn [Term.hist]. rewrite map_map.
    assert (E : nth l (map (fun _ : nat => @nil (Z * bool)) (seq 0 (length (k_lps (w_init p))))) [] = []).
    { clear. generalize (seq 0 (length (k_lps (w_init p)))). intros L. revert l. induction L as [|a L IH]; intros [|l]; cbn; auto. }
    rewrite E. cbn [map]. symmetry.
    (* the initial history of an LP is its LP_INIT group: markers and the LP_INIT entry *)
    destruct (w_init_ini2 p Htypes) as (_ & _ & _ & _ & PH). destruct (PH l ltac:(rewrite Hn; exact Hl)) as (ms & im & Eh & Hi & _).
    rewrite Eh. unfold flat. cbn [flat_map]. rewrite app_nil_r. unfold flat1. rewrite P_app, P_sent. cbn [app fst snd]. unfold P. cbn [procs_of flat_map app filter].
    unfold notinit. unfold is_init in Hi. rewrite Hi, N.eqb_refl. reflexivity.
Qed.

Theorem worker_termination_invariant (ops : list wop) : TI (fold_left (twstep p ck TMAX) ops (tw_init p TMAX)).
Proof.
  generalize tw_init_TI. generalize (tw_init p TMAX). induction ops as [|o r IH]; intros s H; cbn [fold_left]; [exact H|]. apply IH. apply twstep_TI. exact H.
Qed.

(* the worker component is the worker model itself *)
Lemma tprocess_w s : tw_w (tprocess p ck TMAX s) = process_msg p ck (tw_w s).
Proof. unfold tprocess. destruct (_ && _); reflexivity. Qed.
Lemma titer_w k : forall s, tw_w (titer p ck TMAX k s) = iter k (process_msg p ck) (tw_w s).
Proof. induction k as [|k IH]; intros s; cbn [titer iter]; [reflexivity|]. rewrite IH, tprocess_w. reflexivity. Qed.
Lemma trun_out_w fuel : forall s, tw_w (trun_out p ck TMAX fuel s) = fst (run_out p ck fuel (tw_w s)).
Proof.
  induction fuel as [|fuel IH]; intros s; cbn [trun_out run_out]; [reflexivity|]. unfold wq_peek.
  destruct (k_heap (wq_transfer (tw_w s))); cbn [fst]; [reflexivity|]. rewrite IH, tprocess_w. reflexivity.
Qed.
Lemma twstep_w s o : tw_w (twstep p ck TMAX s o) = wstep p ck (tw_w s) o.
Proof. destruct o; cbn [twstep wstep tw_w]; [apply titer_w|reflexivity|reflexivity|reflexivity|reflexivity|apply trun_out_w]. Qed.
Theorem tw_worker (ops : list wop) : tw_w (fold_left (twstep p ck TMAX) ops (tw_init p TMAX)) = fold_left (wstep p ck) ops (w_init p).
Proof.
  assert (G : forall s, tw_w (fold_left (twstep p ck TMAX) ops s) = fold_left (wstep p ck) ops (tw_w s)).
  { induction ops as [|o r IH]; intros s; cbn [fold_left]; [reflexivity|]. rewrite IH, twstep_w. reflexivity. }
  apply G.
Qed.

(* C07 at process.c level: after every script, a vote of the thread at a GVT value g below the termination time means that every
   LP's predicate held at LP_INIT or on an event below g that the termination model still records -- and what it records for the
   LP ends with exactly the timestamps of the processed entries the LP retains *)
Theorem worker_vote_sound (ops : list wop) (g tend : Z) :
  let s := fold_left (twstep p ck TMAX) ops (tw_init p TMAX) in
  Term.votes (tw_t s) g tend = true ->
  (tend <= g)%Z \/
  forall l, l < n ->
    nth l (Term.term (tw_t s)) (-1)%Z = TMAX \/
    exists t, (0 <= t < g)%Z /\ In (t, true) (nth l (Term.hist (tw_t s)) []) /\
              (tw_ovf s = false -> exists pre, map fst (nth l (Term.hist (tw_t s)) []) = pre ++ map ztm (P (x_hist (get_lp (tw_w s) l)))).
Proof.
  intros s Hv. pose proof (worker_termination_invariant ops) as H. fold s in H. destruct H as [F Hn I Ht Hgh].
  destruct (Term.vote_sound TMAX (tw_t s) g tend I Hv) as [Hl|Hr]; [left; exact Hl|right].
  intros l Hl. destruct (Hr l ltac:(rewrite Ht; exact Hl)) as [E|(t & Htg & Hin)]; [left; exact E|right].
  exists t. split; [exact Htg|]. split; [exact Hin|]. intros Eo. apply (Hgh Eo l Hl).
Qed.
End TermProofs.
