(* C08 (GVT part): the c_a / c_b phase protocol never deadlocks while every thread keeps calling it; every step
   other than leaving D raises a measure that is at most 4n.  The shutdown race of finding F12 is exactly a state
   where the only enabled step belongs to a thread that has stopped calling the protocol (it waits at the drain barrier). *)
From Coq Require Import List Arith Lia.
From RS Require Import TW.GvtCounters.
Import ListNotations.

Lemma cnt_zero_not_in p l : cnt p l = 0 -> forall i, nth_error l i <> Some p.
Proof. intros H i Hi. pose proof (cnt_pos _ _ _ Hi). lia. Qed.

Lemma exists_phase p l : 0 < cnt p l -> exists i, nth_error l i = Some p.
Proof.
  unfold cnt. induction l as [|h t IH]; cbn; [lia|].
  destruct (ph_eqb_spec p h) as [->|Hne].
  - intros _. exists 0. reflexivity.
  - intros H. destruct (IH H) as [i Hi]. exists (S i). exact Hi.
Qed.

Lemma leaveD s : 0 < cnt D (ths s) -> cb s = 0 -> exists s', step s s'.
Proof. intros HD Hc. destruct (exists_phase D (ths s) HD) as [i Hi]. eexists. apply (stepD s i I Hi Hc). right; reflexivity. Qed.

(* no deadlock: whenever some thread is inside a pass, some thread has an enabled step *)
Theorem progress s : Inv s -> cnt I (ths s) < length (ths s) -> exists s', step s s'.
Proof.
  intros [Hb Ha Hw] Hnot. pose proof (cnt_total (ths s)) as Ht.
  destruct (Nat.eq_0_gt_0_cases (cnt A (ths s))) as [HA|HA].
  - destruct (Nat.eq_0_gt_0_cases (cnt B (ths s))) as [HB|HB].
    + destruct (Nat.eq_0_gt_0_cases (cnt C (ths s))) as [HC|HC].
      * (* only I and D: a D thread may leave (cb = 0) *)
        apply leaveD; clear Hw; lia.
      * (* some C, no A, no B: window {C,D} or {B,C} with B = 0: all in C/D, ca = n *)
        destruct (exists_phase C (ths s) HC) as [i Hi].
        eexists. apply (stepC s i Hi). lia.
    + (* some B, no A *)
      destruct (Nat.eq_dec (cb s) (length (ths s))) as [Hfull|Hnf].
      * destruct (exists_phase B (ths s) HB) as [i Hi]. eexists. apply (stepB s i Hi). exact Hfull.
      * (* not everybody joined: an idle thread sees cb <> 0 and starts *)
        assert (HI : 0 < cnt I (ths s)) by lia.
        destruct (exists_phase I (ths s) HI) as [i Hi]. eexists. apply (start s i Hi). right. clear Hw. lia.
  - (* some A *)
    destruct (Nat.eq_dec (ca s) 0) as [Hca|Hca].
    + destruct (exists_phase A (ths s) HA) as [i Hi]. eexists. apply (stepA s i Hi). exact Hca.
    + (* A together with C or D: only window {I,A,D}: a D thread may leave *)
      apply leaveD; lia.
Qed.

(* every step other than leaving D moves one thread one phase forward *)
Definition rank (p : ph) : nat := match p with I => 0 | A => 1 | B => 2 | C => 3 | D => 4 end.
Definition measure (l : list ph) : nat := fold_right (fun p acc => rank p + acc) 0 l.

Lemma measure_upd l : forall i x y, nth_error l i = Some x -> measure (upd l i y) + rank x = measure l + rank y.
Proof.
  unfold measure. induction l as [|h t IH]; intros [|i] x y; cbn; try discriminate.
  - intros [= ->]. lia.
  - intros Hi. specialize (IH i x y Hi). lia.
Qed.

Lemma measure_next l i x y : nth_error l i = Some x -> rank y = S (rank x) -> measure (upd l i y) = S (measure l).
Proof. intros Hi E. pose proof (measure_upd l i x y Hi). lia. Qed.

Lemma measure_bound l : measure l <= 4 * length l.
Proof.
  unfold measure. induction l as [|h t IH]; cbn; [lia|].
  assert (rank h <= 4) by (destruct h; repeat constructor). lia.
Qed.

Theorem step_advances s s' : step s s' ->
  measure (ths s') = S (measure (ths s)) \/ (exists i, nth_error (ths s) i = Some D /\ measure (ths s') < measure (ths s)).
Proof.
  intros S. destruct S as [s i Hi Hg | s i Hi Hg | s i Hi Hg | s i Hi Hg | s i x Hi Hg Hx]; cbn [ths].
  1-4: left; apply (measure_next _ _ _ _ Hi); reflexivity.
  - right. exists i. split; [exact Hi|]. pose proof (measure_upd _ _ _ x Hi). destruct Hx as [-> | ->]; cbn in *; lia.
Qed.

(* Finding F12 as a state of the model: thread 0 has joined an opening round and waits in phase B for everybody,
   thread 1 is idle.  The invariant holds, the state is reachable, and the ONLY enabled steps are thread 1's start.
   In the implementation thread 1 may at that moment already be waiting at the barrier of gvt_msg_drain, where it no
   longer calls the protocol: the run cannot return. *)
Definition f12_state : st := {| ths := [B; I]; ca := 0; cb := 1 |}.

Lemma f12_reachable : exists s1 s2, step (init 2) s1 /\ step s1 s2 /\ s2 = f12_state.
Proof.
  exists {| ths := [A; I]; ca := 0; cb := 0 |}, f12_state. split; [|split; [|reflexivity]].
  - apply (start (init 2) 0); [reflexivity|left; reflexivity].
  - apply (stepA {| ths := [A; I]; ca := 0; cb := 0 |} 0); reflexivity.
Qed.

Theorem f12_only_the_absent_thread_can_move s' : step f12_state s' -> s' = {| ths := [B; A]; ca := 0; cb := 1 |}.
Proof.
  intros S. remember f12_state as s eqn:E.
  destruct S as [s i Hi Hg | s i Hi Hg | s i Hi Hg | s i Hi Hg | s i x Hi Hg Hx]; subst s; cbn in Hi, Hg |- *.
  - destruct i as [|[|i]]; cbn in Hi; try discriminate; [reflexivity|destruct i; discriminate].
  - destruct i as [|[|i]]; cbn in Hi; try discriminate. destruct i; discriminate.
  - discriminate.
  - discriminate.
  - discriminate.
Qed.
