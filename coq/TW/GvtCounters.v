(* The c_a / c_b phase protocol of gvt_thread_phase_run, n threads, all schedules.
   Shows the guards that the data argument (GvtData.v) assumes:
   - a thread publishes (phase C step) only when every thread has joined the pass,
   - a thread (re)starts with a cleared accumulator only when nobody is between publishing and leaving D. *)
From Coq Require Import List Arith Lia Bool.
Import ListNotations.

Inductive ph := I | A | B | C | D.
Definition ph_eqb (x y : ph) : bool :=
  match x, y with I, I | A, A | B, B | C, C | D, D => true | _, _ => false end.
Lemma ph_eqb_spec x y : reflect (x = y) (ph_eqb x y).
Proof. destruct x, y; simpl; constructor; congruence. Qed.

Record st := { ths : list ph; ca : nat; cb : nat }.
Definition cnt (p : ph) (l : list ph) : nat := length (filter (ph_eqb p) l).

Fixpoint upd (l : list ph) (i : nat) (x : ph) : list ph :=
  match l, i with [], _ => [] | _ :: t, 0 => x :: t | h :: t, S j => h :: upd t j x end.

Inductive step : st -> st -> Prop :=
| start : forall s i, nth_error (ths s) i = Some I -> (cnt I (ths s) = length (ths s) \/ cb s <> 0) ->
    step s {| ths := upd (ths s) i A; ca := ca s; cb := cb s |}
| stepA : forall s i, nth_error (ths s) i = Some A -> ca s = 0 ->
    step s {| ths := upd (ths s) i B; ca := ca s; cb := S (cb s) |}
| stepB : forall s i, nth_error (ths s) i = Some B -> cb s = length (ths s) ->
    step s {| ths := upd (ths s) i C; ca := S (ca s); cb := cb s |}
| stepC : forall s i, nth_error (ths s) i = Some C -> ca s = length (ths s) ->
    step s {| ths := upd (ths s) i D; ca := ca s; cb := cb s - 1 |}
| stepD : forall s i x, nth_error (ths s) i = Some D -> cb s = 0 -> (x = A \/ x = I) ->
    step s {| ths := upd (ths s) i x; ca := ca s - 1; cb := cb s |}.

Lemma cnt_upd l i x y p : nth_error l i = Some x ->
  cnt p (upd l i y) + (if ph_eqb p x then 1 else 0) = cnt p l + (if ph_eqb p y then 1 else 0).
Proof.
  unfold cnt. revert i; induction l as [|h t IH]; intros [|i]; simpl; try discriminate.
  - intros [= ->]. destruct (ph_eqb p x), (ph_eqb p y); simpl; rewrite ?Nat.add_0_r, ?Nat.add_1_r; reflexivity.
  - intros Hi. destruct (ph_eqb p h); simpl; [f_equal|]; exact (IH _ Hi).
Qed.
Lemma upd_length l i x : length (upd l i x) = length l.
Proof. revert i; induction l as [|h t IH]; intros [|i]; simpl; auto. Qed.
Lemma cnt_total l : cnt I l + cnt A l + cnt B l + cnt C l + cnt D l = length l.
Proof. (* the head adds one to exactly one summand *)
  unfold cnt. induction l as [|h t IH]; simpl; auto. destruct h; simpl; rewrite <- ?plus_n_Sm; simpl; f_equal; exact IH. Qed.
Lemma cnt_pos l i x : nth_error l i = Some x -> 0 < cnt x l.
Proof. unfold cnt. revert i; induction l as [|h t IH]; intros [|i]; simpl; try discriminate.
  - intros [= ->]. destruct (ph_eqb_spec x x); [apply Nat.lt_0_succ|congruence].
  - intros Hi. destruct (ph_eqb x h); [apply Nat.lt_0_succ|exact (IH _ Hi)]. Qed.

Record Inv (s : st) : Prop := {
  i_cb : cb s = cnt B (ths s) + cnt C (ths s);
  i_ca : ca s = cnt C (ths s) + cnt D (ths s);
  i_win : (cnt C (ths s) = 0 /\ cnt D (ths s) = 0) \/                      (* only I, A, B *)
          (cnt I (ths s) = 0 /\ cnt A (ths s) = 0 /\ cnt D (ths s) = 0) \/    (* only B, C *)
          (cnt I (ths s) = 0 /\ cnt A (ths s) = 0 /\ cnt B (ths s) = 0) \/    (* only C, D *)
          (cnt B (ths s) = 0 /\ cnt C (ths s) = 0)                            (* only I, A, D *)
}.

Lemma cnt_move l i x y : nth_error l i = Some x -> x <> y ->
  cnt x l = S (cnt x (upd l i y)) /\ cnt y (upd l i y) = S (cnt y l) /\
  forall p, p <> x -> p <> y -> cnt p (upd l i y) = cnt p l.
Proof.
  intros Hi Hne. pose proof (fun p => cnt_upd l i x y p Hi) as H.
  assert (T : forall a, ph_eqb a a = true) by (intros a; destruct a; reflexivity).
  assert (F : forall a b, a <> b -> ph_eqb a b = false) by (intros a b Hab; destruct (ph_eqb_spec a b); [contradiction|reflexivity]).
  split; [|split].
  - specialize (H x). rewrite T, (F x y Hne), Nat.add_0_r, Nat.add_1_r in H. symmetry. exact H.
  - specialize (H y). rewrite T, (F y x (not_eq_sym Hne)), Nat.add_0_r, Nat.add_1_r in H. exact H.
  - intros p Hx Hy. specialize (H p). rewrite (F p x Hx), (F p y Hy), !Nat.add_0_r in H. exact H.
Qed.

Theorem step_inv s s' : Inv s -> step s s' -> Inv s'.
Proof.
  intros [Hb Ha Hw] S. pose proof (cnt_total (ths s)) as Ht.
  destruct S as [s i Hi Hg | s i Hi Hg | s i Hi Hg | s i Hi Hg | s i x Hi Hg Hx].
  - (* I -> A: the window stays {I,A,B} or {I,A,D}; the other two hold no I *)
    destruct (cnt_move _ i I A Hi ltac:(discriminate)) as (E1 & _ & E3).
    constructor; cbn [ths ca cb]; rewrite ?(E3 B), ?(E3 C), ?(E3 D) by discriminate; [exact Hb|exact Ha|].
    destruct Hw as [Hw|[Hw|[Hw|Hw]]]; [left; exact Hw| | |right; right; right; exact Hw];
      exfalso; rewrite E1 in Hw; destruct Hw as [Hw _]; discriminate.
  - (* A -> B under ca = 0: nobody is in C or D *)
    destruct (cnt_move _ i A B Hi ltac:(discriminate)) as (_ & E2 & E3).
    rewrite Hg in Ha. symmetry in Ha. apply Nat.eq_add_0 in Ha.
    constructor; cbn [ths ca cb]; rewrite ?E2, ?(E3 C), ?(E3 D) by discriminate; [rewrite Hb; reflexivity|rewrite Hg; destruct Ha as [-> ->]; reflexivity|left; exact Ha].
  - (* B -> C under cb = n: everybody is in B or C *)
    destruct (cnt_move _ i B C Hi ltac:(discriminate)) as (E1 & E2 & E3).
    assert (H0 : cnt I (ths s) = 0 /\ cnt A (ths s) = 0 /\ cnt D (ths s) = 0) by (clear - Ht Hb Hg; lia).
    constructor; cbn [ths ca cb]; rewrite ?E2, ?(E3 I), ?(E3 A), ?(E3 D) by discriminate;
      [rewrite Hb, E1; apply plus_n_Sm|rewrite Ha; reflexivity|right; left; exact H0].
  - (* C -> D under ca = n: everybody is in C or D *)
    destruct (cnt_move _ i C D Hi ltac:(discriminate)) as (E1 & E2 & E3).
    assert (H0 : cnt I (ths s) = 0 /\ cnt A (ths s) = 0 /\ cnt B (ths s) = 0) by (clear - Ht Ha Hg; lia).
    constructor; cbn [ths ca cb]; rewrite ?E2, ?(E3 I), ?(E3 A), ?(E3 B) by discriminate;
      [rewrite Hb, E1, <- plus_n_Sm; apply Nat.sub_0_r|rewrite Ha, E1; apply plus_n_Sm|right; right; left; exact H0].
  - (* D -> A or I under cb = 0: nobody is in B or C *)
    assert (Hd : D <> x /\ B <> x /\ C <> x) by (destruct Hx as [-> | ->]; repeat split; discriminate). destruct Hd as (Hd & HxB & HxC).
    destruct (cnt_move _ i D x Hi Hd) as (E1 & _ & E3).
    rewrite Hg in Hb. symmetry in Hb. apply Nat.eq_add_0 in Hb.
    constructor; cbn [ths ca cb]; rewrite ?(E3 B), ?(E3 C) by (discriminate || auto);
      [rewrite Hg; destruct Hb as [-> ->]; reflexivity|rewrite Ha, E1, <- plus_n_Sm; apply Nat.sub_0_r|right; right; right; exact Hb].
Qed.

Definition init (n : nat) : st := {| ths := repeat I n; ca := 0; cb := 0 |}.
Lemma cnt_repeat p q n : cnt p (repeat q n) = if ph_eqb p q then n else 0.
Proof. unfold cnt. induction n as [|n IH]; simpl; [destruct (ph_eqb p q); auto|]. destruct (ph_eqb p q); simpl; lia. Qed.
Lemma init_inv n : Inv (init n).
Proof. constructor; simpl; rewrite ?cnt_repeat; simpl; auto. Qed.

Theorem publish_guard s i : Inv s -> nth_error (ths s) i = Some C -> ca s = length (ths s) ->
  cnt I (ths s) = 0 /\ cnt A (ths s) = 0 /\ cnt B (ths s) = 0.       (* everybody is in C or D: all have joined *)
Proof. intros [_ Ha _] _ Hg. pose proof (cnt_total (ths s)). lia. Qed.

Theorem start_guard s i : Inv s -> nth_error (ths s) i = Some I ->
  (cnt I (ths s) = length (ths s) \/ cb s <> 0) -> cnt D (ths s) = 0.   (* nobody is between publishing and leaving D *)
Proof. intros [Hb Ha Hw] Hi Hg. pose proof (cnt_total (ths s)). pose proof (cnt_pos _ _ _ Hi). lia. Qed.

(* and leaving D / entering B are similarly exclusive: nobody enters B while someone is still in C or D *)
Theorem enterB_guard s i : Inv s -> nth_error (ths s) i = Some A -> ca s = 0 -> cnt C (ths s) = 0 /\ cnt D (ths s) = 0.
Proof. intros [_ Ha _] _ Hg. lia. Qed.
