(* Exactly-once cancellation on the worker model (TW/Worker.v), for every script  —  C06 at the level of process.c.
   Wherever a message identity is, its flag word says so (place => word; a dropped or annihilated message keeps word 3
   and is nowhere):
     pending (shared list, heap, or held by the network)          flag 0 (valid) or 1 (cancelled while pending)
     processed (an EProc entry of its destination's history)      flag 2
     processed AND pending again as its own cancellation notice   flag 3
     being annihilated by the rollback its notice started         flag 5 (transient, inside process_msg)
   and a retained marker (ESent) points to a message that was never cancelled (flag 0 or 2).
   Pending, processed and marker lists carry no duplicates, so nothing is delivered or removed twice. *)
From Coq Require Import List ZArith NArith PArith Bool Arith Lia Sorted Permutation FMapPositive.
From RS Require Import Order.MsgOrderDefs Heap.HeapList TW.App TW.Seq TW.Worker TW.WorkerProofs TW.WorkerSafety.
Import ListNotations.

Definition fl (f : fmap) (m : wmsg) : N := flag_of f (wm_id m).

Lemma fl_set_same f m v : fl (flag_set f (wm_id m) v) m = v.
Proof. unfold fl, flag_of, flag_set. rewrite PositiveMap.gss. reflexivity. Qed.
Lemma fl_set_other f i v x : wm_id x <> i -> fl (flag_set f i v) x = fl f x.
Proof. intros H. unfold fl, flag_of, flag_set. rewrite PositiveMap.gso; [reflexivity|exact H]. Qed.

Record Loc (g : Z) (f : fmap) (pd pr mk : list wmsg) (nx : positive) : Prop := {
  l_nd_pd : NoDup (map wm_id pd);
  l_nd_pr : NoDup (map wm_id pr);
  l_nd_mk : NoDup (map wm_id mk);
  l_body : forall a b, In a (pd ++ pr ++ mk) -> In b (pd ++ pr ++ mk) -> wm_id a = wm_id b -> a = b;
  l_lt : forall a, In a (pd ++ pr ++ mk) -> (wm_id a < nx)%positive;
  l_pd : forall m, In m pd -> (fl f m = 3%N /\ In m pr) \/ ((fl f m = 0%N \/ fl f m = 1%N) /\ ~ In m pr);
  l_pr : forall m, In m pr -> (fl f m = 3%N /\ In m pd) \/ (fl f m = 2%N /\ ~ In m pd) \/ (fl f m = 5%N /\ ~ In m pd);
  l_mk : forall m, In m mk -> fl f m = 0%N \/ (fl f m = 2%N /\ (In m pr \/ (Z.of_N (tm m) < g)%Z))
}.

Lemma nodup_perm_ids (a b : list wmsg) : Permutation a b -> NoDup (map wm_id a) -> NoDup (map wm_id b).
Proof. intros P. apply Permutation_NoDup. apply Permutation_map. exact P. Qed.

Lemma Loc_perm g f pd pr mk nx pd' pr' mk' :
  Loc g f pd pr mk nx -> Permutation pd pd' -> Permutation pr pr' -> Permutation mk mk' -> Loc g f pd' pr' mk' nx.
Proof.
  intros [A1 A2 A3 A4 A5 A6 A7 A8] P1 P2 P3.
  assert (Hall : forall x, In x (pd' ++ pr' ++ mk') -> In x (pd ++ pr ++ mk)).
  { intros x. rewrite !in_app_iff. intros [H|[H|H]]; [left; apply (Permutation_in _ (Permutation_sym P1) H)|
      right; left; apply (Permutation_in _ (Permutation_sym P2) H)|right; right; apply (Permutation_in _ (Permutation_sym P3) H)]. }
  constructor.
  - apply (nodup_perm_ids _ _ P1 A1).
  - apply (nodup_perm_ids _ _ P2 A2).
  - apply (nodup_perm_ids _ _ P3 A3).
  - intros a b Ha Hb. apply A4; apply Hall; assumption.
  - intros a Ha. apply A5. apply Hall. exact Ha.
  - intros m Hm. apply (Permutation_in _ (Permutation_sym P1)) in Hm. destruct (A6 m Hm) as [[H1 H2]|[H1 H2]].
    + left. split; [exact H1|apply (Permutation_in _ P2 H2)].
    + right. split; [exact H1|]. intro H. apply H2. apply (Permutation_in _ (Permutation_sym P2) H).
  - intros m Hm. apply (Permutation_in _ (Permutation_sym P2)) in Hm. destruct (A7 m Hm) as [[H1 H2]|[[H1 H2]|[H1 H2]]].
    + left. split; [exact H1|apply (Permutation_in _ P1 H2)].
    + right. left. split; [exact H1|]. intro H. apply H2. apply (Permutation_in _ (Permutation_sym P1) H).
    + right. right. split; [exact H1|]. intro H. apply H2. apply (Permutation_in _ (Permutation_sym P1) H).
  - intros m Hm. apply (Permutation_in _ (Permutation_sym P3)) in Hm. destruct (A8 m Hm) as [H|[H1 [H2|H2]]].
    + left. exact H.
    + right. split; [exact H1|left; apply (Permutation_in _ P2 H2)].
    + right. split; [exact H1|right; exact H2].
Qed.

Lemma Loc_gvt g g' f pd pr mk nx : Loc g f pd pr mk nx -> (g <= g')%Z -> Loc g' f pd pr mk nx.
Proof.
  intros [A1 A2 A3 A4 A5 A6 A7 A8] Hg. constructor; try assumption.
  intros m Hm. destruct (A8 m Hm) as [H|[H1 [H2|H2]]]; [left; exact H|right; split; [exact H1|left; exact H2]|right; split; [exact H1|right; lia]].
Qed.

Lemma nodup_cons_id (m : wmsg) l : NoDup (map wm_id (m :: l)) -> ~ In m l /\ NoDup (map wm_id l).
Proof. cbn. intros H. inversion H as [|? ? Hn Hd]; subst. split; [|exact Hd]. intro Hi. apply Hn. apply in_map. exact Hi. Qed.
Lemma nodup_cons_id' (m : wmsg) l x : NoDup (map wm_id (m :: l)) -> In x l -> wm_id x <> wm_id m.
Proof. cbn. intros H Hx E. inversion H as [|? ? Hn Hd]; subst. apply Hn. rewrite <- E. apply in_map. exact Hx. Qed.

Ltac inapp := rewrite ?in_app_iff; cbn [In]; tauto.

(* The general step: the flag word and the places of ONE message m change; every other message keeps its word and its places.
   [Hm] lets m be a message already placed (l_body) as well as a fresh one (l_lt). *)
Lemma Loc_move g f f' m pd pr mk nx pd' pr' mk' nx' :
  Loc g f pd pr mk nx ->
  (forall x, In x (pd ++ pr ++ mk) -> wm_id x = wm_id m -> x = m) ->
  (forall x, wm_id x <> wm_id m -> fl f' x = fl f x) ->
  (forall x, x <> m -> (In x pd' <-> In x pd) /\ (In x pr' <-> In x pr) /\ (In x mk' <-> In x mk)) ->
  NoDup (map wm_id pd') -> NoDup (map wm_id pr') -> NoDup (map wm_id mk') ->
  (nx <= nx')%positive -> (wm_id m < nx')%positive ->
  (In m pd' -> (fl f' m = 3%N /\ In m pr') \/ ((fl f' m = 0%N \/ fl f' m = 1%N) /\ ~ In m pr')) ->
  (In m pr' -> (fl f' m = 3%N /\ In m pd') \/ (fl f' m = 2%N /\ ~ In m pd') \/ (fl f' m = 5%N /\ ~ In m pd')) ->
  (In m mk' -> fl f' m = 0%N \/ (fl f' m = 2%N /\ (In m pr' \/ (Z.of_N (tm m) < g)%Z))) ->
  Loc g f' pd' pr' mk' nx'.
Proof.
  intros [A1 A2 A3 A4 A5 A6 A7 A8] Hm Hf Hin N1 N2 N3 Hnx Hmx Cpd Cpr Cmk.
  assert (Hold : forall x, In x (pd' ++ pr' ++ mk') -> x = m \/ (x <> m /\ wm_id x <> wm_id m /\ In x (pd ++ pr ++ mk))).
  { intros x Hx. destruct (Pos.eq_dec (wm_id x) (wm_id m)) as [E|E].
    - left. destruct (wmsg_eq_dec x m) as [Ex|Ex]; [exact Ex|]. apply Hm; [|exact E]. destruct (Hin x Ex) as (I1 & I2 & I3). revert Hx. rewrite !in_app_iff. tauto.
    - right. assert (Ex : x <> m) by (intros ->; apply E; reflexivity). split; [exact Ex|]. split; [exact E|].
      destruct (Hin x Ex) as (I1 & I2 & I3). revert Hx. rewrite !in_app_iff. tauto. }
  constructor; try assumption.
  - intros a b Ha Hb E. destruct (Hold a Ha) as [->|(_ & Ea & Ia)], (Hold b Hb) as [->|(_ & Eb & Ib)]; [reflexivity|congruence|congruence|exact (A4 a b Ia Ib E)].
  - intros a Ha. destruct (Hold a Ha) as [->|(_ & _ & Ia)]; [exact Hmx|]. exact (Pos.lt_le_trans _ _ _ (A5 a Ia) Hnx).
  - intros x Hx. destruct (Hold x ltac:(inapp)) as [->|(Ex & E & _)]; [exact (Cpd Hx)|]. destruct (Hin x Ex) as (I1 & I2 & _).
    rewrite (Hf x E), I2. apply A6, I1, Hx.
  - intros x Hx. destruct (Hold x ltac:(inapp)) as [->|(Ex & E & _)]; [exact (Cpr Hx)|]. destruct (Hin x Ex) as (I1 & I2 & _).
    rewrite (Hf x E), I1. apply A7, I2, Hx.
  - intros x Hx. destruct (Hold x ltac:(inapp)) as [->|(Ex & E & _)]; [exact (Cmk Hx)|]. destruct (Hin x Ex) as (_ & I2 & I3).
    rewrite (Hf x E), I2. apply A8, I3, Hx.
Qed.

Lemma placed_id g f pd pr mk nx m : Loc g f pd pr mk nx -> In m (pd ++ pr ++ mk) -> forall x, In x (pd ++ pr ++ mk) -> wm_id x = wm_id m -> x = m.
Proof. intros L Hmi x Hx. exact (l_body _ _ _ _ _ _ L x m Hx Hmi). Qed.
Lemma nodup_cons_new (m : wmsg) l : (forall x, In x l -> wm_id x <> wm_id m) -> NoDup (map wm_id l) -> NoDup (map wm_id (m :: l)).
Proof. intros H N. cbn. constructor; [|exact N]. intro Hi. apply in_map_iff in Hi. destruct Hi as (x & E & Hx). exact (H x Hx E). Qed.

(* the usual case: a placed message, the flag word set explicitly, no new identity *)
Lemma Loc_set g f m v pd pr mk nx pd' pr' mk' :
  Loc g f pd pr mk nx -> In m (pd ++ pr ++ mk) ->
  (forall x, x <> m -> (In x pd' <-> In x pd) /\ (In x pr' <-> In x pr) /\ (In x mk' <-> In x mk)) ->
  NoDup (map wm_id pd') -> NoDup (map wm_id pr') -> NoDup (map wm_id mk') ->
  (In m pd' -> (v = 3%N /\ In m pr') \/ ((v = 0%N \/ v = 1%N) /\ ~ In m pr')) ->
  (In m pr' -> (v = 3%N /\ In m pd') \/ (v = 2%N /\ ~ In m pd') \/ (v = 5%N /\ ~ In m pd')) ->
  (In m mk' -> v = 0%N \/ (v = 2%N /\ (In m pr' \/ (Z.of_N (tm m) < g)%Z))) ->
  Loc g (flag_set f (wm_id m) v) pd' pr' mk' nx.
Proof.
  intros L Hmi Hin N1 N2 N3 Cpd Cpr Cmk.
  apply (Loc_move g f _ m pd pr mk nx); try assumption; rewrite ?fl_set_same; try assumption.
  - exact (placed_id _ _ _ _ _ _ m L Hmi).
  - intros x. apply fl_set_other.
  - apply Pos.le_refl.
  - exact (l_lt _ _ _ _ _ _ L m Hmi).
Qed.

(* a pending valid message is taken in hand: it counts as processed from the moment its flag word says so *)
Lemma Loc_extract0 g f m pd pr mk nx : Loc g f (m :: pd) pr mk nx -> fl f m = 0%N ->
  Loc g (flag_set f (wm_id m) 2) pd (m :: pr) mk nx.
Proof.
  intros L Hf. destruct (nodup_cons_id m pd (l_nd_pd _ _ _ _ _ _ L)) as [Hnpd N1].
  assert (Hmi : In m ((m :: pd) ++ pr ++ mk)) by (left; reflexivity).
  assert (Hnpr : ~ In m pr) by (destruct (l_pd _ _ _ _ _ _ L m (or_introl eq_refl)) as [[H _]|[_ H]]; [rewrite Hf in H; discriminate|exact H]).
  apply (Loc_set g f m 2 _ _ _ nx _ _ _ L Hmi); try apply L.
  - intros x Hx. cbn [In]. intuition congruence.
  - exact N1.
  - apply nodup_cons_new; [|apply L]. intros x Hx E. apply Hnpr. rewrite <- (placed_id _ _ _ _ _ _ m L Hmi x ltac:(inapp) E). exact Hx.
  - intros H. contradiction.
  - intros _. right. left. split; [reflexivity|exact Hnpd].
  - intros _. right. split; [reflexivity|left; left; reflexivity].
Qed.

(* a message cancelled while pending is dropped *)
Lemma Loc_extract1 g f m pd pr mk nx : Loc g f (m :: pd) pr mk nx -> fl f m = 1%N ->
  Loc g (flag_set f (wm_id m) 3) pd pr mk nx.
Proof.
  intros L Hf. destruct (nodup_cons_id m pd (l_nd_pd _ _ _ _ _ _ L)) as [Hnpd N1].
  assert (Hnpr : ~ In m pr) by (destruct (l_pd _ _ _ _ _ _ L m (or_introl eq_refl)) as [[H _]|[_ H]]; [rewrite Hf in H; discriminate|exact H]).
  assert (Hnmk : ~ In m mk) by (intro H; destruct (l_mk _ _ _ _ _ _ L m H) as [H1|[H1 _]]; rewrite Hf in H1; discriminate).
  apply (Loc_set g f m 3 _ _ _ nx _ _ _ L (or_introl eq_refl)); try apply L; try contradiction; [|exact N1].
  intros x Hx. cbn [In]. intuition congruence.
Qed.

(* the cancellation notice of a processed message is taken in hand *)
Lemma Loc_extract3 g f m pd pr mk nx : Loc g f (m :: pd) pr mk nx -> fl f m = 3%N ->
  In m pr /\ Loc g (flag_set f (wm_id m) 5) pd pr mk nx.
Proof.
  intros L Hf. destruct (nodup_cons_id m pd (l_nd_pd _ _ _ _ _ _ L)) as [Hnpd N1].
  assert (Hpr : In m pr) by (destruct (l_pd _ _ _ _ _ _ L m (or_introl eq_refl)) as [[_ H]|[[H|H] _]]; [exact H|rewrite Hf in H; discriminate..]).
  assert (Hnmk : ~ In m mk) by (intro H; destruct (l_mk _ _ _ _ _ _ L m H) as [H1|[H1 _]]; rewrite Hf in H1; discriminate).
  split; [exact Hpr|]. apply (Loc_set g f m 5 _ _ _ nx _ _ _ L (or_introl eq_refl)); try apply L; try contradiction; [|exact N1|].
  - intros x Hx. cbn [In]. intuition congruence.
  - intros _. right. right. split; [reflexivity|exact Hnpd].
Qed.

(* send_anti_messages, one marker: fetch-add of ANTI; the notice is queued iff the message had been processed *)
Lemma Loc_unmark g f m pd pr mk nx : Loc g f pd pr (m :: mk) nx -> (g <= Z.of_N (tm m))%Z ->
  (fl f m = 0%N /\ Loc g (flag_set f (wm_id m) 1) pd pr mk nx) \/
  (fl f m = 2%N /\ Loc g (flag_set f (wm_id m) 3) (m :: pd) pr mk nx).
Proof.
  intros L Hg. destruct (nodup_cons_id m mk (l_nd_mk _ _ _ _ _ _ L)) as [Hnmk N3].
  assert (Hmi : In m (pd ++ pr ++ m :: mk)) by inapp.
  assert (Hin : forall x, x <> m -> (In x pd <-> In x pd) /\ (In x pr <-> In x pr) /\ (In x mk <-> In x (m :: mk))) by (intros x Hx; cbn [In]; intuition congruence).
  destruct (l_mk _ _ _ _ _ _ L m (or_introl eq_refl)) as [Hf|[Hf Hlive]]; [left|right]; (split; [exact Hf|]).
  - assert (Hnpr : ~ In m pr) by (intro H; destruct (l_pr _ _ _ _ _ _ L m H) as [[H1 _]|[[H1 _]|[H1 _]]]; rewrite Hf in H1; discriminate).
    apply (Loc_set g f m 1 _ _ _ nx _ _ _ L Hmi Hin); try apply L; try contradiction; [exact N3|]. intros _. right. split; [right; reflexivity|exact Hnpr].
  - assert (Hpr : In m pr) by (destruct Hlive as [H|H]; [exact H|lia]).
    assert (Hnpd : ~ In m pd) by (intro H; destruct (l_pd _ _ _ _ _ _ L m H) as [[H1 _]|[[H1|H1] _]]; rewrite Hf in H1; discriminate).
    apply (Loc_set g f m 3 _ _ _ nx (m :: pd) _ _ L Hmi); try apply L; try contradiction; [| |exact N3| |].
    + intros x Hx. cbn [In]. intuition congruence.
    + apply nodup_cons_new; [|apply L]. intros x Hx E. apply Hnpd. rewrite <- (placed_id _ _ _ _ _ _ m L Hmi x ltac:(inapp) E). exact Hx.
    + intros _. left. split; [reflexivity|exact Hpr].
    + intros _. left. split; [reflexivity|left; reflexivity].
Qed.

(* send_anti_messages, one processed message: fetch-sub of PROCESSED; re-queued unless it is cancelled *)
Lemma Loc_unproc g f m pd pr mk nx : Loc g f pd (m :: pr) mk nx ->
  (fl f m = 2%N /\ Loc g (flag_set f (wm_id m) 0) (m :: pd) pr mk nx) \/
  (fl f m = 3%N /\ Loc g (flag_set f (wm_id m) 1) pd pr mk nx) \/
  (fl f m = 5%N /\ Loc g (flag_set f (wm_id m) 3) pd pr mk nx).
Proof.
  intros L. destruct (nodup_cons_id m pr (l_nd_pr _ _ _ _ _ _ L)) as [Hnpr N2].
  assert (Hmi : In m (pd ++ (m :: pr) ++ mk)) by inapp.
  assert (Hnmk : fl f m <> 2%N -> ~ In m mk).
  { intros Hne H. destruct (l_mk _ _ _ _ _ _ L m H) as [H1|[H1 _]]; [|exact (Hne H1)].
    destruct (l_pr _ _ _ _ _ _ L m (or_introl eq_refl)) as [[H2 _]|[[H2 _]|[H2 _]]]; rewrite H1 in H2; discriminate. }
  assert (Hin : forall x, x <> m -> (In x pd <-> In x pd) /\ (In x pr <-> In x (m :: pr)) /\ (In x mk <-> In x mk)) by (intros x Hx; cbn [In]; intuition congruence).
  destruct (l_pr _ _ _ _ _ _ L m (or_introl eq_refl)) as [[Hf Hpd]|[[Hf Hnpd]|[Hf Hnpd]]]; [right; left|left|right; right]; (split; [exact Hf|]).
  - (* already queued as a notice; now cancelled-pending *)
    apply (Loc_set g f m 1 _ _ _ nx _ _ _ L Hmi Hin); try apply L; try contradiction; [exact N2| |rewrite Hf in Hnmk; intros H; exfalso; revert H; apply Hnmk; discriminate].
    intros _. right. split; [right; reflexivity|exact Hnpr].
  - (* back to pending *)
    apply (Loc_set g f m 0 _ _ _ nx (m :: pd) _ _ L Hmi); try apply L; try contradiction; [| |exact N2| |].
    + intros x Hx. cbn [In]. intuition congruence.
    + apply nodup_cons_new; [|apply L]. intros x Hx E. apply Hnpd. rewrite <- (placed_id _ _ _ _ _ _ m L Hmi x ltac:(inapp) E). exact Hx.
    + intros _. right. split; [left; reflexivity|exact Hnpr].
    + intros _. left. reflexivity.
  - (* the annihilation itself *)
    apply (Loc_set g f m 3 _ _ _ nx _ _ _ L Hmi Hin); try apply L; try contradiction; [exact N2|]. rewrite Hf in Hnmk. intros H. exfalso. revert H. apply Hnmk. discriminate.
Qed.

Lemma fresh_id g f pd pr mk nx : Loc g f pd pr mk nx -> forall x, In x (pd ++ pr ++ mk) -> wm_id x <> nx.
Proof. intros L x Hx E. pose proof (l_lt _ _ _ _ _ _ L x Hx) as H. rewrite E in H. exact (Pos.lt_irrefl _ H). Qed.

(* ScheduleNewEvent: a fresh identity, flag word 0, queued, marker recorded *)
Lemma Loc_fresh g f e pd pr mk nx : Loc g f pd pr mk nx ->
  Loc g (flag_set f nx 0) (mkWm nx e :: pd) pr (mkWm nx e :: mk) (Pos.succ nx).
Proof.
  intros L. pose proof (fresh_id _ _ _ _ _ _ L) as Hne. set (m := mkWm nx e).
  apply (Loc_move g f _ m pd pr mk nx); try apply L; change (flag_set f nx 0) with (flag_set f (wm_id m) 0); rewrite ?fl_set_same.
  - intros x Hx E. destruct (Hne x Hx E).
  - intros x. apply fl_set_other.
  - intros x Hx. cbn [In]. intuition congruence.
  - apply nodup_cons_new; [|apply L]. intros x Hx. apply Hne. inapp.
  - apply nodup_cons_new; [|apply L]. intros x Hx. apply Hne. inapp.
  - apply Pos.lt_le_incl, Pos.lt_succ_diag_r.
  - apply Pos.lt_succ_diag_r.
  - intros _. right. split; [left; reflexivity|]. intros H. apply (Hne m); [inapp|reflexivity].
  - intros H. destruct (Hne m ltac:(inapp) eq_refl).
  - intros _. left. reflexivity.
Qed.

(* LP_INIT: a fresh identity that is processed from the start *)
Lemma Loc_fresh_proc g f e pd pr mk nx : Loc g f pd pr mk nx ->
  Loc g (flag_set f nx 2) pd (mkWm nx e :: pr) mk (Pos.succ nx).
Proof.
  intros L. pose proof (fresh_id _ _ _ _ _ _ L) as Hne. set (m := mkWm nx e).
  apply (Loc_move g f _ m pd pr mk nx); try apply L; change (flag_set f nx 2) with (flag_set f (wm_id m) 2); rewrite ?fl_set_same.
  - intros x Hx E. destruct (Hne x Hx E).
  - intros x. apply fl_set_other.
  - intros x Hx. cbn [In]. intuition congruence.
  - apply nodup_cons_new; [|apply L]. intros x Hx. apply Hne. inapp.
  - apply Pos.lt_le_incl, Pos.lt_succ_diag_r.
  - apply Pos.lt_succ_diag_r.
  - intros H. destruct (Hne m ltac:(inapp) eq_refl).
  - intros _. right. left. split; [reflexivity|]. intros H. apply (Hne m); [inapp|reflexivity].
  - intros H. destruct (Hne m ltac:(inapp) eq_refl).
Qed.

(* fossil collection releases a processed message that lies below the GVT *)
Lemma Loc_release g f m pd pr mk nx : Loc g f pd (m :: pr) mk nx -> (Z.of_N (tm m) < g)%Z ->
  (forall x, In x pd -> (g <= Z.of_N (tm x))%Z) -> Loc g f pd pr mk nx.
Proof.
  intros L Hlt Hge. destruct (nodup_cons_id m pr (l_nd_pr _ _ _ _ _ _ L)) as [Hnpr N2].
  assert (Hmi : In m (pd ++ (m :: pr) ++ mk)) by inapp.
  apply (Loc_move g f f m _ _ _ nx _ _ _ nx L (placed_id _ _ _ _ _ _ m L Hmi)); try apply L; try contradiction; try reflexivity.
  - intros x Hx. cbn [In]. intuition congruence.
  - exact N2.
  - exact Hmi.
  - intros H. specialize (Hge m H). lia.
  - intros H. destruct (l_mk _ _ _ _ _ _ L m H) as [H0|[H2 _]]; [left; exact H0|right; split; [exact H2|right; exact Hlt]].
Qed.

Lemma Loc_drop_mark g f m pd pr mk nx : Loc g f pd pr (m :: mk) nx -> Loc g f pd pr mk nx.
Proof.
  intros L. destruct (nodup_cons_id m mk (l_nd_mk _ _ _ _ _ _ L)) as [Hnmk N3].
  assert (Hmi : In m (pd ++ pr ++ m :: mk)) by inapp.
  apply (Loc_move g f f m _ _ _ nx _ _ _ nx L (placed_id _ _ _ _ _ _ m L Hmi)); try apply L; try contradiction; try reflexivity.
  - intros x Hx. cbn [In]. intuition congruence.
  - exact N3.
  - exact Hmi.
Qed.

Lemma Loc_empty g f nx : Loc g f [] [] [] nx.
Proof. constructor; cbn; try constructor; intros; contradiction. Qed.
