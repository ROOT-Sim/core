(* The data argument of the thread-level GVT reduction of gvt.c, for n threads and all schedules.
   Lock-step discipline assumed here (TW/GvtCounters.v shows that the c_a/c_b counters enforce it):
   - a thread clears its accumulator only when no thread has published its value for the current pass,
   - a thread publishes only when every thread has joined the pass. *)
From Coq Require Import List Arith Lia.
Import ListNotations.

Inductive stage := Idle | Joined | Done.

(* timestamps are naturals; None is SIMTIME_MAX *)
Definition omin (a b : option nat) : option nat :=
  match a, b with None, x => x | x, None => x | Some x, Some y => Some (Nat.min x y) end.
Definition ole (a : option nat) (t : nat) : Prop := match a with None => False | Some x => x <= t end.
Definition oleo (a b : option nat) : Prop := match b with None => True | Some y => ole a y end.
Definition lmin (l : list nat) : option nat := fold_right (fun t acc => omin (Some t) acc) None l.

Record th := { st : stage; acc : option nat; cur : option nat; q : list nat; red : option nat }.
Definition sys := list th.

Definition beta (t : th) : option nat := match st t with Done => red t | _ => acc t end.
Definition minbeta (s : sys) : option nat := fold_right (fun t a => omin (beta t) a) None s.

Fixpoint upd {A} (l : list A) (i : nat) (x : A) : list A :=
  match l, i with [] , _ => [] | _ :: t, 0 => x :: t | h :: t, S j => h :: upd t j x end.

Fixpoint remove1 (t : nat) (l : list nat) : list nat :=
  match l with [] => [] | x :: r => if Nat.eqb x t then r else x :: remove1 t r end.

Inductive step : sys -> sys -> Prop :=
| s_extract : forall s i x t, nth_error s i = Some x -> cur x = None -> In t (q x) ->
    step s (upd s i {| st := st x; acc := omin (acc x) (Some t); cur := Some t; q := remove1 t (q x); red := red x |})
| s_insert : forall s i j x y c t, nth_error s i = Some x -> cur x = Some c -> c <= t ->
    nth_error s j = Some y -> i <> j ->
    step s (upd s j {| st := st y; acc := acc y; cur := cur y; q := t :: q y; red := red y |})
| s_insert_self : forall s i x c t, nth_error s i = Some x -> cur x = Some c -> c <= t ->
    step s (upd s i {| st := st x; acc := acc x; cur := cur x; q := t :: q x; red := red x |})
| s_finish : forall s i x, nth_error s i = Some x ->
    step s (upd s i {| st := st x; acc := acc x; cur := None; q := q x; red := red x |})
| s_reset : forall s i x, nth_error s i = Some x -> st x = Idle -> cur x = None ->
    (forall y, In y s -> st y <> Done) ->
    step s (upd s i {| st := Joined; acc := None; cur := None; q := q x; red := red x |})
| s_rejoin : forall s i x, nth_error s i = Some x -> st x = Idle -> cur x = None ->
    (forall y, In y s -> st y <> Done) ->
    step s (upd s i {| st := Joined; acc := acc x; cur := None; q := q x; red := red x |})
| s_publish : forall s i x, nth_error s i = Some x -> st x = Joined -> cur x = None ->
    (forall y, In y s -> st y <> Idle) ->
    step s (upd s i {| st := Done; acc := acc x; cur := None; q := q x; red := omin (acc x) (lmin (q x)) |})
| s_end : forall s, (forall y, In y s -> st y = Done) ->
    step s (map (fun y => {| st := Idle; acc := acc y; cur := cur y; q := q y; red := red y |}) s).

Record Phi (s : sys) : Prop := {
  p_acc : forall x c, In x s -> cur x = Some c -> ole (acc x) c;
  p_cur : forall x c, In x s -> st x = Done -> cur x = Some c -> ole (minbeta s) c;
  p_q : forall y t, In y s -> st y = Done -> In t (q y) -> ole (minbeta s) t
}.

Lemma ole_omin a b t : ole (omin a b) t <-> ole a t \/ ole b t.
Proof. destruct a as [x|], b as [y|]; simpl; try tauto. destruct (Nat.min_spec x y) as [[H ->]|[H ->]]; lia. Qed.
Lemma ole_trans a x t : ole a x -> x <= t -> ole a t.
Proof. destruct a; simpl; [lia|tauto]. Qed.

(* [minbeta], [lmin], [gmin] and the node level's minima are all of this form *)
Definition omins {A} (f : A -> option nat) (l : list A) : option nat := fold_right (fun x a => omin (f x) a) None l.
Lemma omins_spec {A} (f : A -> option nat) l t : ole (omins f l) t <-> exists x, In x l /\ ole (f x) t.
Proof.
  induction l as [|y r IH]; simpl.
  - split; [tauto|intros [x [[] _]]].
  - rewrite ole_omin, IH. split.
    + intros [H|[x [Hx H]]]; [exists y; auto|exists x; auto].
    + intros [x [[<-|Hx] H]]; [left; auto|right; exists x; auto].
Qed.
Lemma omins_ext {A} (f g : A -> option nat) l : (forall x, In x l -> f x = g x) -> omins f l = omins g l.
Proof. induction l as [|y r IH]; simpl; intros H; [reflexivity|]. rewrite (H y), IH; auto. Qed.
Lemma lmin_spec l t : In t l -> ole (lmin l) t.
Proof. intros H. apply (omins_spec Some). exists t. split; [exact H|apply le_n]. Qed.

Lemma in_upd_inv {A} (l : list A) i x y : In y (upd l i x) -> y = x \/ In y l.
Proof. revert i; induction l as [|h t IH]; intros [|i]; simpl; auto.
  - intros [H|H]; auto.
  - intros [H|H]; auto. destruct (IH _ H); auto. Qed.
Lemma in_upd_new {A} (l : list A) i x x' : nth_error l i = Some x -> In x' (upd l i x').
Proof. revert i; induction l as [|h t IH]; intros [|i]; simpl; try discriminate; eauto. Qed.
Lemma in_upd_keep {A} (l : list A) i x x' y : nth_error l i = Some x -> In y l -> y = x \/ In y (upd l i x').
Proof. revert i; induction l as [|h t IH]; intros [|i]; simpl; try discriminate.
  - intros [= ->] [->|H]; auto.
  - intros Hi [->|H]; auto. destruct (IH _ Hi H); auto. Qed.
Lemma nth_error_in' {A} (l : list A) i x : nth_error l i = Some x -> In x l.
Proof. apply nth_error_In. Qed.
Lemma remove1_in t l u : In u (remove1 t l) -> In u l.
Proof. induction l as [|a r IH]; simpl; [tauto|]. destruct (Nat.eqb a t); [right; auto|]. intros [->|H]; [left; auto|right; auto]. Qed.

Lemma omins_upd {A} (f : A -> option nat) l i x x' t :
  nth_error l i = Some x -> (forall u, ole (f x) u -> ole (f x') u) -> ole (f x') t \/ ole (omins f l) t -> ole (omins f (upd l i x')) t.
Proof.
  intros Hi Hb H. apply omins_spec. assert (Hx' : In x' (upd l i x')) by (eapply in_upd_new; eauto).
  destruct H as [H|H]; [exists x'; auto|]. apply omins_spec in H. destruct H as [z [Hz Ht]].
  destruct (in_upd_keep l i x x' z Hi Hz) as [->|Hz']; [exists x'; auto|exists z; auto].
Qed.

Lemma cur_bound s x c : Phi s -> In x s -> cur x = Some c -> ole (minbeta s) c.
Proof.
  intros P Hx Hc. destruct (st x) eqn:Ex; [| |apply (p_cur s P x c); auto];
    apply (omins_spec beta); exists x; (split; [exact Hx|]); unfold beta; rewrite Ex; apply (p_acc s P x c); auto.
Qed.

Lemma Phi_upd s i x x' : Phi s -> nth_error s i = Some x ->
  (forall u, ole (beta x) u -> ole (beta x') u) ->
  (forall c, cur x' = Some c -> ole (acc x') c) ->
  (st x' = Done -> forall t, cur x' = Some t \/ In t (q x') -> ole (beta x') t \/ ole (minbeta s) t) ->
  Phi (upd s i x').
Proof.
  intros P Hi Hb Ha Hd.
  assert (Hup : forall t, ole (beta x') t \/ ole (minbeta s) t -> ole (minbeta (upd s i x')) t) by (intros t; apply (omins_upd beta s i x x' t Hi Hb)).
  constructor.
  - intros y c Hy. apply in_upd_inv in Hy. destruct Hy as [->|Hy]; [apply Ha|apply (p_acc s P y c Hy)].
  - intros y c Hy Hst Hc. apply Hup. apply in_upd_inv in Hy. destruct Hy as [->|Hy]; [apply (Hd Hst); auto|right; apply (p_cur s P y c); auto].
  - intros y t Hy Hst Ht. apply Hup. apply in_upd_inv in Hy. destruct Hy as [->|Hy]; [apply (Hd Hst); auto|right; apply (p_q s P y t); auto].
Qed.

(* while nobody has published only the accumulator clause says anything *)
Lemma Phi_none_done s : (forall x c, In x s -> cur x = Some c -> ole (acc x) c) -> (forall y, In y s -> st y <> Done) -> Phi s.
Proof. intros Ha Hnd. constructor; [exact Ha|intros y c Hy Hst|intros y t Hy Hst]; destruct (Hnd y Hy Hst). Qed.

Lemma Phi_join s i x' : Phi s -> (forall y, In y s -> st y <> Done) -> st x' <> Done -> cur x' = None -> Phi (upd s i x').
Proof.
  intros P Hnd Hst Hc. apply Phi_none_done.
  - intros y c Hy Hcy. apply in_upd_inv in Hy. destruct Hy as [->|Hy]; [congruence|apply (p_acc s P y c); auto].
  - intros y Hy. apply in_upd_inv in Hy. destruct Hy as [->|Hy]; [exact Hst|apply Hnd; exact Hy].
Qed.

Lemma Phi_insert s i j x y c t : Phi s -> nth_error s i = Some x -> cur x = Some c -> c <= t -> nth_error s j = Some y ->
  Phi (upd s j {| st := st y; acc := acc y; cur := cur y; q := t :: q y; red := red y |}).
Proof.
  intros P Hi Hc Hle Hj. apply nth_error_In in Hi. pose proof (nth_error_In _ _ Hj) as Hy.
  apply (Phi_upd s j y); [exact P|exact Hj|auto|intros c'; apply (p_acc s P y c' Hy)|]. simpl. intros Hst u [Hu|[<-|Hu]]; right.
  - apply (p_cur s P y u); auto.
  - eapply ole_trans; [apply (cur_bound s x c); auto|exact Hle].
  - apply (p_q s P y u); auto.
Qed.

Theorem step_Phi s s' : Phi s -> step s s' -> Phi s'.
Proof.
  intros P S. destruct S as
    [s i x t Hi Hc Ht | s i j x y c t Hi Hc Hle Hj Hne | s i x c t Hi Hc Hle | s i x Hi
    | s i x Hi Hst Hc Hnd | s i x Hi Hst Hc Hnd | s i x Hi Hst Hc Hall | s Hall].
  - (* extract: the accumulator absorbs the timestamp *)
    pose proof (nth_error_In _ _ Hi) as Hx. apply (Phi_upd s i x); [exact P|exact Hi| | |]; simpl.
    + unfold beta. simpl. destruct (st x); auto; intros u H; apply ole_omin; auto.
    + intros c [= <-]. apply ole_omin. right. apply le_n.
    + intros Hst u [[= <-]|Hu]; right; [apply (p_q s P x t)|apply (p_q s P x u)]; auto. apply (remove1_in t). exact Hu.
  - apply (Phi_insert s i j x y c t); assumption.
  - apply (Phi_insert s i i x x c t); assumption.
  - pose proof (nth_error_In _ _ Hi) as Hx. apply (Phi_upd s i x); [exact P|exact Hi|auto|discriminate|]. simpl.
    intros Hst u [Hu|Hu]; [discriminate|right; apply (p_q s P x u); auto].
  - (* reset: nobody has published *)
    apply Phi_join; [exact P|exact Hnd|discriminate|reflexivity].
  - apply Phi_join; [exact P|exact Hnd|discriminate|reflexivity].
  - (* publish: the published value is below the accumulator and below everything queued here *)
    apply (Phi_upd s i x); [exact P|exact Hi| |discriminate|]; unfold beta; simpl.
    + rewrite Hst. intros u H. apply ole_omin. auto.
    + intros _ u [Hu|Hu]; [discriminate|]. left. apply ole_omin. right. apply lmin_spec. exact Hu.
  - (* end of the pass: everybody returns to Idle *)
    apply Phi_none_done.
    + intros z c Hz Hcz. apply in_map_iff in Hz. destruct Hz as [y [<- Hy]]. apply (p_acc s P y c); auto.
    + intros z Hz. apply in_map_iff in Hz. destruct Hz as [y [<- Hy]]. discriminate.
Qed.

Definition gmin (s : sys) : option nat := fold_right (fun t a => omin (red t) a) None s.

(* when every thread has published, the minimum of the published values is a lower bound of every queued
   message and of every event in progress *)
Theorem gvt_safe s : Phi s -> (forall y, In y s -> st y = Done) ->
  (forall y t, In y s -> In t (q y) -> ole (gmin s) t) /\ (forall y c, In y s -> cur y = Some c -> ole (gmin s) c).
Proof.
  intros P Hall. replace (gmin s) with (minbeta s) by (apply omins_ext; intros y Hy; unfold beta; rewrite (Hall y Hy); reflexivity).
  split.
  - intros y t Hy Ht. apply (p_q s P y t); auto.
  - intros y c Hy Hc. apply (p_cur s P y c); auto.
Qed.
