(* The executable reference executor (TW/Seq.v), run to exhaustion, IS a sequential execution in the sense of the abstract
   theory (Abs/Peel.seqrun over the application's handler): the dispatch log it produces is a trace in which every step
   processes a content-minimal pending event.  This connects the object the checks compare the C runtime with to the object
   the capstone theorem of C01 talks about. *)
From Coq Require Import NArith ZArith List Bool Lia Permutation.
From RS Require Import Order.MsgOrderDefs TW.App TW.Seq TW.SeqProofs TW.AppAbs.
From RS.Abs Require Import Peel Abs.
Import ListNotations.

Section Refines.
Variable p : prog.
Hypothesis Hvalid : prog_valid p = true.

Notation seqrunp := (Peel.seqrun cont (Abs.clt cont cltb) lpstate (ahandle p)).
Definition sg_of (lps : list lpstate) : nat -> lpstate := fun l => nth l lps dummy_lp.
Definition pay (e : event) : nat * cont := pay_of e.

Lemma sg_set_lp lps i st : (i < length lps)%nat -> forall l, Peel.upd (sg_of lps) i st l = sg_of (set_lp lps i st) l.
Proof.
  intros Hi l. unfold Peel.upd, sg_of. revert i Hi l. induction lps as [|x r IH]; intros i Hi l; cbn in Hi; [lia|].
  destruct i as [|i]; destruct l as [|l]; cbn; try reflexivity.
  - destruct (Nat.eqb_spec l i) as [->|Hne].
    + specialize (IH i ltac:(lia) i). rewrite Nat.eqb_refl in IH. exact IH.
    + specialize (IH i ltac:(lia) l). destruct (Nat.eqb_spec l i); [contradiction|]. exact IH.
Qed.

Definition dests_ok (evs : list event) : Prop := forall e, In e evs -> (e_dest e < p_lps p)%N.

Lemma ev_roundtrip e : ev_of (N.to_nat (e_dest e)) (cont_of e) = e.
Proof. destruct e as [d t ty pl]. unfold ev_of, cont_of, c_t, c_type, c_pl. cbn. rewrite N2Nat.id. reflexivity. Qed.

Lemma clt_pay y e : Abs.clt cont cltb (snd (pay y)) (snd (pay e)) <-> ev_before y e = true.
Proof.
  unfold Abs.clt, pay, pay_of. cbn [snd]. rewrite (cltb_is_event_order (e_dest y) (e_dest e) (cont_of y) (cont_of e)).
  unfold cont_of, c_t, c_type, c_pl. cbn [fst snd]. destruct y, e. reflexivity.
Qed.

Lemma handle_dests e st : (e_dest e < p_lps p)%N -> dests_ok (snd (handle p e st)).
Proof.
  intros Hd x Hx.
  assert (Hl : (N.to_nat (e_dest e) < nlps p)%nat) by (unfold nlps; lia).
  pose proof (avalid p Hvalid (N.to_nat (e_dest e)) st (cont_of e) (pay_of x)) as Hv.
  unfold ahandle in Hv. destruct (Nat.ltb_spec (N.to_nat (e_dest e)) (nlps p)); [|lia].
  rewrite ev_roundtrip in Hv. destruct (handle p e st) as [st' outs]. cbn [snd] in *.
  destruct (Hv (in_map pay_of outs x Hx)) as [_ Hlt]. unfold pay_of in Hlt. cbn in Hlt. unfold nlps in Hlt. lia.
Qed.

Lemma set_lp_length lps : forall i st, length (set_lp lps i st) = length lps.
Proof. induction lps as [|x r IH]; intros [|i] st; cbn; auto. Qed.

Lemma run_is_seqrun fuel : forall s s',
  sorted (q_pending s) -> dests_ok (q_pending s) -> length (q_lps s) = nlps p ->
  seq_run fuel p None false s = (s', true) ->
  exists tr, rev (q_log s') = rev (q_log s) ++ tr /\ seqrunp (sg_of (q_lps s)) (map pay (q_pending s)) (map pay tr).
Proof.
  induction fuel as [|k IH]; intros s s' Hs Hd Hlen R; cbn in R; [discriminate|].
  destruct (seq_step p None false s) as [s1|] eqn:E.
  - destruct (seq_step_spec p None false s s1 Hs E) as (e & rest & Ep & Hmin & Hlog & Hs1 & Hperm & Hlps).
    assert (He : (e_dest e < p_lps p)%N) by (apply Hd; rewrite Ep; left; reflexivity).
    assert (Hi : (N.to_nat (e_dest e) < length (q_lps s))%nat) by (rewrite Hlen; unfold nlps; lia).
    set (st := nth (N.to_nat (e_dest e)) (q_lps s) dummy_lp) in *.
    destruct (IH s1 s' Hs1) as (tr & Etr & Rtr).
    { intros x Hx. apply (Permutation_in _ Hperm) in Hx. apply in_app_or in Hx. destruct Hx as [Hx|Hx].
      - eapply handle_dests; eassumption.
      - apply Hd. rewrite Ep. right. exact Hx. }
    { rewrite Hlps, set_lp_length. exact Hlen. }
    { exact R. }
    exists (e :: tr). split.
    + rewrite Etr, Hlog. cbn. rewrite <- app_assoc. reflexivity.
    + rewrite Ep. cbn [map].
      eapply (Peel.seq_cons cont (Abs.clt cont cltb) lpstate (ahandle p) (sg_of (q_lps s)) (pay e :: map pay rest) (pay e) (map pay rest)
                (fst (handle p e st)) (map pay (snd (handle p e st)))).
      * split; [left; reflexivity|]. intros y Hy Hc. change (pay e :: map pay rest) with (map pay (e :: rest)) in Hy.
        apply in_map_iff in Hy. destruct Hy as (y0 & <- & Hy0). apply clt_pay in Hc.
        rewrite (Hmin y0) in Hc; [discriminate|rewrite Ep; exact Hy0].
      * reflexivity.
      * unfold ahandle, pay, pay_of. cbn [fst snd].
        destruct (Nat.ltb_spec (N.to_nat (e_dest e)) (nlps p)) as [_|Hge]; [|unfold nlps in Hge; lia].
        rewrite ev_roundtrip. unfold sg_of. fold st. destruct (handle p e st) as [st' outs]. reflexivity.
      * apply (Peel.seqrun_ext _ _ _ (fun _ => True) (ahandle p) _ (sg_of (q_lps s1)) _ (map pay (q_pending s1))); auto.
        -- intros l _. rewrite Hlps. symmetry. apply (sg_set_lp (q_lps s) (N.to_nat (e_dest e)) (fst (handle p e st)) Hi l).
        -- rewrite <- map_app. apply Permutation_map, Hperm.
  - injection R as <-. exists []. split; [rewrite app_nil_r; reflexivity|].
    unfold seq_step in E. destruct (q_pending s) as [|e rest]; [constructor|].
    cbn in E. destruct (handle p e (nth (N.to_nat (e_dest e)) (q_lps s) dummy_lp)). discriminate.
Qed.

Lemma init_lps_spec n : forall me acc pend,
  fst (init_lps p n me acc pend) = rev acc ++ map (fun k => fst (lp_init p (me + N.of_nat k))) (seq 0 n) /\
  Permutation (snd (init_lps p n me acc pend)) (init_events p n me ++ pend).
Proof.
  induction n as [|k IH]; intros me acc pend; cbn [init_lps init_events seq map].
  - rewrite app_nil_r. split; reflexivity.
  - rewrite <- seq_shift, map_map, N.add_0_r.
    rewrite (map_ext _ (fun k => fst (lp_init p (me + 1 + N.of_nat k))))
      by (intros a; rewrite Nat2N.inj_succ, <- N.add_1_l, N.add_assoc; reflexivity).
    destruct (lp_init p me) as [st evs].
    destruct (IH (me + 1)%N (st :: acc) (fold_left (fun q e => insert_ev e q) evs pend)) as [-> H2].
    split; [cbn [rev fst]; rewrite <- app_assoc; reflexivity|].
    rewrite H2, inserts_perm. cbn [snd]. rewrite !app_assoc. apply Permutation_app_tail, Permutation_app_comm.
Qed.

(* The reference executor, started as the runtime starts (LP_INIT for every LP) and run to exhaustion, produces a dispatch log
   that is a sequential execution of the application from the initial states, over exactly the initial events. *)
Theorem reference_run_is_sequential fuel b s' :
  seq_run fuel p None false (seq_init p b) = (s', true) ->
  seqrunp (s0 p) (map pay (init_events p (nlps p) 0)) (map pay (rev (q_log s'))).
Proof.
  intros R. unfold seq_init in R.
  pose proof (init_lps_spec (N.to_nat (p_lps p)) 0%N [] []) as [H1 H2].
  pose proof (init_lps_sorted p (N.to_nat (p_lps p)) 0%N [] [] sorted_nil) as Hsorted.
  destruct (init_lps p (N.to_nat (p_lps p)) 0%N [] []) as [lps pend]. cbn [fst snd] in *.
  rewrite app_nil_r in H2. cbn [rev app] in H1.
  set (st0 := mkSeq pend lps (map (fun x => b && can_end p (N.of_nat (fst x)) (snd x)) (combine (seq 0 (length lps)) lps)) []) in *.
  assert (Hlen : length lps = nlps p) by (rewrite H1, map_length, seq_length; reflexivity).
  assert (Hd : dests_ok (q_pending st0)).
  { intros e He. cbn in He. apply (Permutation_in _ H2) in He. fold (nlps p) in He.
    apply init_events_dest in He. unfold nlps in He. lia. }
  destruct (run_is_seqrun fuel st0 s' Hsorted Hd Hlen R) as (tr & Etr & Rtr). cbn in Etr. subst tr.
  apply (Peel.seqrun_ext _ _ _ (fun l => (l < nlps p)%nat) (ahandle p) _ (sg_of (q_lps st0)) _ (map pay (q_pending st0))); auto;
    [intros l s c o _ Ho; apply (avalid p Hvalid l s c o Ho)| | |apply Permutation_map, H2].
  - intros l Hl. unfold sg_of, s0. cbn [q_lps st0]. rewrite H1.
    rewrite (nth_indep _ dummy_lp (fst (lp_init p 0%N))) by (rewrite map_length, seq_length; exact Hl).
    change (fst (lp_init p 0%N)) with ((fun k => fst (lp_init p (0 + N.of_nat k))) 0%nat).
    rewrite map_nth. rewrite seq_nth by exact Hl. reflexivity.
  - intros e He. apply in_map_iff in He. destruct He as (x & <- & Hx). cbn. apply Hd in Hx. unfold nlps. lia.
Qed.
End Refines.

Lemma filter_true (A : Type) (l : list A) : filter (fun _ => true) l = l.
Proof. induction l as [|x l IH]; cbn; [reflexivity|rewrite IH; reflexivity]. Qed.

Lemma pay_number_init es : forall id, map (Bridge.pay cont) (number_init id es) = map pay es.
Proof. induction es as [|e es IH]; intros id; cbn; [reflexivity|]. rewrite IH. reflexivity. Qed.

(* the loop closed: at quiescence the histories of any Time Warp execution are the reference executor's log *)
Theorem time_warp_at_quiescence_is_reference_log (p : prog) : prog_valid p = true ->
  forall a, ReachM.reach cont cltb tltb lpstate (nlps p) (s0 p) (ahandle p) (ainit p) (length (init_events p (nlps p) 0)) a ->
  BridgeM.gvt_ok cont (fun _ => true) a ->
  forall fuel b s', seq_run fuel p None false (seq_init p b) = (s', true) ->
  forall l, (l < nlps p)%nat ->
  Peel.proj cont l (map pay (rev (q_log s'))) = map (Abs.con cont) (AbsM.hist cont a l).
Proof.
  intros Hv a Hreach Hok fuel b s' Hrun l Hl.
  rewrite (app_time_warp_is_sequential p Hv (fun _ => true) (fun _ _ _ _ => eq_refl) a Hreach Hok (map pay (rev (q_log s')))); [| |exact Hl].
  - unfold BridgeM.Hg. rewrite filter_true. reflexivity.
  - unfold Bridge.Pg. rewrite filter_true. unfold ainit. rewrite pay_number_init.
    apply (Peel.seqrun_ext _ _ _ (fun _ => True) (ahandle p) _ (s0 p) _ (map pay (init_events p (nlps p) 0))); auto;
      [|exact (reference_run_is_sequential p Hv fuel b s' Hrun)].
    intros l0 s c _. unfold Bridge.handle_g. destruct (ahandle p l0 s c) as [s1 o]. rewrite filter_true. reflexivity.
Qed.
