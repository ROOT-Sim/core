(* Proofs about the worker model (TW/Worker.v).
   Main result (C05 at the level of process.c): in every state the worker can reach by any script, the memory of every LP is
   exactly what executing the processed messages of its retained history, in order, from its oldest retained checkpoint gives,
   and every retained checkpoint is what executing the history up to its reference gives.  Rollback (checkpoint restore +
   silent re-execution), forward execution with periodic checkpoints, and fossil collection with re-basing all keep it. *)
From Coq Require Import List ZArith NArith Bool Arith Lia Sorted FMapPositive.
From RS Require Import Order.MsgOrderDefs Heap.HeapList TW.App TW.Seq TW.Worker.
Import ListNotations.

Lemma skipn_skipn {A} (l : list A) : forall a b, skipn a (skipn b l) = skipn (a + b) l.
Proof.
  induction l as [|x l IH]; intros a b; [rewrite !skipn_nil; reflexivity|].
  destruct b as [|b]; [rewrite Nat.add_0_r; reflexivity|].
  rewrite Nat.add_succ_r. cbn [skipn]. apply IH.
Qed.
Lemma skipn_app_l {A} (h e : list A) a : a <= length h -> skipn a (h ++ e) = skipn a h ++ e.
Proof. intros H. rewrite skipn_app. replace (a - length h) with 0 by lia. reflexivity. Qed.
Lemma firstn_app_l {A} (h e : list A) a : a <= length h -> firstn a (h ++ e) = firstn a h.
Proof. intros H. rewrite firstn_app. replace (a - length h) with 0 by lia. apply app_nil_r. Qed.
Lemma in_skipn {A} (l : list A) n x : In x (skipn n l) -> In x l.
Proof. intros H. rewrite <- (firstn_skipn n l). apply in_or_app. right. exact H. Qed.
Lemma in_firstn {A} (l : list A) n x : In x (firstn n l) -> In x l.
Proof. intros H. rewrite <- (firstn_skipn n l). apply in_or_app. left. exact H. Qed.
Lemma in_skipn_le {A} (l : list A) a b x : a <= b -> In x (skipn b l) -> In x (skipn a l).
Proof. intros H Hx. replace b with (b - a + a) in Hx by lia. rewrite <- skipn_skipn in Hx. exact (in_skipn _ _ _ Hx). Qed.
Lemma nth_error_firstn_lt {A} (l : list A) : forall n i, i < n -> nth_error (firstn n l) i = nth_error l i.
Proof.
  induction l as [|x l IH]; intros n i H; [rewrite firstn_nil; reflexivity|].
  destruct n as [|n]; [lia|]. destruct i as [|i]; [reflexivity|]. cbn. apply IH. lia.
Qed.
Lemma nth_error_skipn_add {A} (l : list A) : forall k i, nth_error (skipn k l) i = nth_error l (k + i).
Proof.
  induction l as [|x l IH]; intros k i; [rewrite skipn_nil; destruct i, k; reflexivity|].
  destruct k as [|k]; [reflexivity|]. cbn. apply IH.
Qed.
Lemma nth_error_snoc {A} (l : list A) x : nth_error (l ++ [x]) (length l) = Some x.
Proof. rewrite nth_error_app2, Nat.sub_diag by lia. reflexivity. Qed.
Lemma last_suffix {A} (pre suf : list A) d : suf <> [] -> last (pre ++ suf) d = last suf d.
Proof.
  intros Hne. induction pre as [|a pre IH]; [reflexivity|]. cbn [app].
  destruct (pre ++ suf) as [|b t] eqn:E; [destruct pre; [contradiction|discriminate]|exact IH].
Qed.

Lemma sub_over {A} (h : list A) a t : length h <= t -> sub h a t = skipn a h.
Proof. intros H. unfold sub. apply firstn_all2. rewrite skipn_length. lia. Qed.
Lemma sub_split {A} (h : list A) a b c : a <= b -> b <= c -> sub h a c = sub h a b ++ sub h b c.
Proof.
  intros H1 H2. unfold sub. replace (skipn b h) with (skipn (b - a) (skipn a h)) by (rewrite skipn_skipn; f_equal; lia).
  replace (c - a) with ((b - a) + (c - b)) by lia. generalize (skipn a h) (b - a). clear. intros l n. revert l.
  induction n as [|n IH]; intros [|x l]; cbn [Nat.add firstn skipn app]; try reflexivity; [rewrite firstn_nil; reflexivity|f_equal; apply IH].
Qed.
Lemma sub_firstn {A} (h : list A) k a t : t <= k -> sub (firstn k h) a t = sub h a t.
Proof.
  intros H. unfold sub. rewrite skipn_firstn_comm, firstn_firstn. f_equal. lia.
Qed.
Lemma sub_app_l {A} (h e : list A) a t : t <= length h -> sub (h ++ e) a t = sub h a t.
Proof. intros H. rewrite <- (sub_firstn (h ++ e) (length h) a t H), firstn_app_l, firstn_all by lia. reflexivity. Qed.
Lemma sub_skipn {A} (h : list A) k a t : sub (skipn k h) a t = sub h (a + k) (t + k).
Proof. unfold sub. rewrite skipn_skipn. f_equal. lia. Qed.

Lemma sorted_app_r {A} (R : A -> A -> Prop) a b : StronglySorted R (a ++ b) -> StronglySorted R b.
Proof. induction a as [|x a IH]; cbn; intros H; [exact H|]. inversion H; subst. apply IH. assumption. Qed.
Lemma sorted_app_l {A} (R : A -> A -> Prop) a b : StronglySorted R (a ++ b) -> StronglySorted R a.
Proof.
  induction a as [|x a IH]; cbn; intros H; [constructor|]. inversion H as [|? ? Hs Hall]; subst.
  constructor; [apply IH; exact Hs|]. rewrite Forall_forall in *. intros y Hy. apply Hall. apply in_or_app. left. exact Hy.
Qed.
Lemma sorted_app_cross {A} (R : A -> A -> Prop) a b x y : StronglySorted R (a ++ b) -> In x a -> In y b -> R x y.
Proof.
  induction a as [|z a IH]; cbn; intros H Hx Hy; [contradiction|]. inversion H as [|? ? Hs Hall]; subst.
  destruct Hx as [<-|Hx].
  - rewrite Forall_forall in Hall. apply Hall. apply in_or_app. right. exact Hy.
  - apply IH; assumption.
Qed.

Lemma set_nth_forall {A} (P : A -> Prop) (l : list A) i x : Forall P l -> (i < length l -> P x) -> Forall P (set_nth l i x).
Proof.
  revert i. induction l as [|h t IH]; intros i Hl Hx; cbn; [constructor|]. inversion Hl; subst.
  destruct i as [|j]; constructor; auto.
  - apply Hx. cbn. lia.
  - apply IH; [assumption|]. intros Hj. apply Hx. cbn. lia.
Qed.
Lemma set_nth_length {A} (l : list A) : forall i x, length (set_nth l i x) = length l.
Proof. induction l as [|h t IH]; intros [|i] x; cbn; auto. Qed.
Lemma nth_set_nth {A} (l : list A) d : forall i x, i < length l -> nth i (set_nth l i x) d = x.
Proof. induction l as [|h t IH]; intros [|i] x H; cbn in *; try lia; [reflexivity|]. apply IH. lia. Qed.
Lemma nth_set_nth_other {A} (l : list A) d : forall i j x, i <> j -> nth i (set_nth l j x) d = nth i l d.
Proof. induction l as [|h t IH]; intros [|i] [|j] x H; cbn; try reflexivity; try lia. apply IH. lia. Qed.

Lemma get_lp_set w l x : l < length (k_lps w) -> get_lp (put_lp w l x) l = x.
Proof. intros Hl. apply nth_set_nth. exact Hl. Qed.
Lemma get_put_other w l x i : i <> l -> get_lp (put_lp w l x) i = get_lp w i.
Proof. intros H. apply nth_set_nth_other. exact H. Qed.
Lemma put_lp_length w l x : length (k_lps (put_lp w l x)) = length (k_lps w).
Proof. apply set_nth_length. Qed.
Lemma get_lp_in w l : l < length (k_lps w) -> In (get_lp w l) (k_lps w).
Proof. apply nth_In. Qed.

(* match_straggler_msg, match_anti_msg and fossil_lp_collect all walk a history down from its newest entry while a test holds.
   [cut q h] is where such a walk over h stops. *)
Fixpoint dropw {A} (q : A -> bool) (l : list A) : list A :=
  match l with [] => [] | x :: r => if q x then dropw q r else l end.
Definition cut {A} (q : A -> bool) (h : list A) : nat := length (dropw q (rev h)).

Lemma cut_snoc {A} (q : A -> bool) h x : cut q (h ++ [x]) = if q x then cut q h else S (length h).
Proof. unfold cut. rewrite rev_app_distr. cbn. destruct (q x); [reflexivity|]. cbn. rewrite rev_length. reflexivity. Qed.

Lemma cut_spec {A} (q : A -> bool) h :
  cut q h <= length h /\ (forall e, In e (skipn (cut q h) h) -> q e = true) /\
  (cut q h = 0 \/ exists e, nth_error h (pred (cut q h)) = Some e /\ q e = false).
Proof.
  induction h as [|x h (IH1 & IH2 & IH3)] using rev_ind; [split; [apply le_n|split; [intros e []|left; reflexivity]]|].
  rewrite cut_snoc, app_length. cbn [length]. destruct (q x) eqn:Ex.
  - split; [lia|split].
    + intros e He. rewrite skipn_app_l in He by exact IH1. apply in_app_or in He. destruct He as [He|[<-|[]]]; [apply IH2; exact He|exact Ex].
    + destruct IH3 as [E|(e & He & Hq)]; [left; exact E|right]. exists e. split; [|exact Hq].
      rewrite nth_error_app1; [exact He|]. apply nth_error_Some. rewrite He. discriminate.
  - split; [lia|split].
    + rewrite skipn_all2 by (rewrite app_length; cbn; lia). intros e [].
    + right. exists x. split; [apply nth_error_snoc|exact Ex].
Qed.

Definition undone_by (f : fmap) (s : wmsg) (e : entry) : bool := match e with ESent _ => true | EProc m => wbefore f s m end.
Definition is_msg (a : wmsg) (e : entry) : bool := match e with ESent _ => false | EProc m => wmsg_eqb m a end.
Definition below_gvt (g : Z) (e : entry) : bool := match e with ESent _ => false | EProc m => Z.ltb (Z.of_N (e_t (wm_ev m))) g end.

Lemma match_straggler_cut f s rh : match_straggler f s rh (length rh) = length (dropw (undone_by f s) rh).
Proof. induction rh as [|[m|m] r IH]; cbn; [reflexivity|exact IH|]. destruct (wbefore f s m); [exact IH|reflexivity]. Qed.
Lemma group_start_cut rh : group_start rh (length rh) = length (dropw (fun e => negb (is_proc e)) rh).
Proof. induction rh as [|[m|m] r IH]; cbn; [reflexivity|exact IH|reflexivity]. Qed.
Lemma find_proc_cut a rh : find_proc a rh (length rh) =
  match dropw (fun e => negb (is_msg a e)) rh with _ :: r => Some (length r, r) | [] => None end.
Proof. induction rh as [|[m|m] r IH]; cbn; [reflexivity|exact IH|]. destruct (wmsg_eqb m a); [reflexivity|exact IH]. Qed.
Lemma newest_below_cut g rh : newest_below g rh (length rh) =
  match dropw (fun e => negb (below_gvt g e)) rh with _ :: r => Some (length r) | [] => None end.
Proof. induction rh as [|[m|m] r IH]; cbn; [reflexivity|exact IH|]. destruct (Z.ltb _ g); [reflexivity|exact IH]. Qed.

Lemma wmsg_eqb_eq a b : wmsg_eqb a b = true -> a = b.
Proof.
  unfold wmsg_eqb. intros H. apply andb_true_iff in H. destruct H as [H1 H2]. apply Pos.eqb_eq in H1.
  destruct (event_eq_dec (wm_ev a) (wm_ev b)) as [E|]; [|discriminate]. destruct a, b. cbn in *. subst. reflexivity.
Qed.
Lemma wmsg_eq_dec (a b : wmsg) : {a = b} + {a <> b}.
Proof. decide equality; [apply event_eq_dec|apply Pos.eq_dec]. Qed.
Lemma wmsg_eqb_refl a : wmsg_eqb a a = true.
Proof. unfold wmsg_eqb. rewrite Pos.eqb_refl. destruct (event_eq_dec (wm_ev a) (wm_ev a)); [reflexivity|contradiction]. Qed.

Definition bnd (hist : list entry) (k : nat) : Prop := k = 0 \/ exists m, nth_error hist (pred k) = Some (EProc m).

Lemma bnd_firstn hist k n : bnd hist k -> k <= n -> bnd (firstn n hist) k.
Proof.
  intros [->|(m & Hm)] Hle; [left; reflexivity|]. destruct k as [|k]; [left; reflexivity|]. right. exists m.
  cbn [pred] in *. rewrite nth_error_firstn_lt by lia. exact Hm.
Qed.
Lemma bnd_skipn hist k r : bnd hist k -> r <= k -> bnd (skipn r hist) (k - r).
Proof.
  intros [->|(m & Hm)] Hle; [left; lia|]. destruct (Nat.eq_dec k r) as [->|Hne]; [left; lia|]. right. exists m.
  rewrite nth_error_skipn_add. replace (r + pred (k - r)) with (pred k) by lia. exact Hm.
Qed.
Lemma bnd_app hist tl k : bnd hist k -> k <= length hist -> bnd (hist ++ tl) k.
Proof.
  intros [->|(m & Hm)] Hle; [left; reflexivity|]. destruct k as [|k]; [left; reflexivity|]. right. exists m.
  cbn [pred] in *. rewrite nth_error_app1 by lia. exact Hm.
Qed.
Lemma bnd_snoc hist m : bnd (hist ++ [EProc m]) (S (length hist)).
Proof. right. exists m. apply nth_error_snoc. Qed.
Lemma bnd_le hist k : bnd hist k -> k <= length hist.
Proof. intros [->|(m & Hm)]; [lia|]. assert (pred k < length hist) by (apply nth_error_Some; rewrite Hm; discriminate). lia. Qed.

Lemma cut_bnd (q : entry -> bool) hist : (forall m, q (ESent m) = true) -> bnd hist (cut q hist).
Proof.
  intros Hq. destruct (cut_spec q hist) as (_ & _ & [E|(e & He & Hf)]); [left; exact E|right].
  destruct e as [m|m]; [rewrite Hq in Hf; discriminate|exists m; exact He].
Qed.

Lemma straggler_index_cut f s h e : straggler_index f s (h ++ [e]) = cut (undone_by f s) h.
Proof. unfold straggler_index, cut. rewrite rev_app_distr, app_length. cbn. rewrite Nat.add_sub, <- rev_length. apply match_straggler_cut. Qed.

Lemma straggler_index_bnd f s hist : bnd hist (straggler_index f s hist) /\ straggler_index f s hist <= length hist.
Proof.
  assert (H : bnd hist (straggler_index f s hist)); [|split; [exact H|apply bnd_le; exact H]].
  destruct hist as [|e h] using rev_ind; [left; reflexivity|]. rewrite straggler_index_cut.
  apply bnd_app; [apply cut_bnd; reflexivity|apply cut_spec].
Qed.

Lemma straggler_index_spec f s hist lastm : last_proc hist = Some lastm -> wbefore f s lastm = true ->
  let k := straggler_index f s hist in
  (forall m, In (EProc m) (skipn k hist) -> wbefore f s m = true) /\
  (k = 0 \/ exists e, nth_error hist (pred k) = Some (EProc e) /\ wbefore f s e = false).
Proof.
  intros Hlast Hw. destruct hist as [|e h _] using rev_ind; [discriminate|].
  unfold last_proc in Hlast. rewrite rev_app_distr in Hlast. cbn in Hlast. destruct e as [|e]; [discriminate|]. injection Hlast as ->.
  cbn zeta. rewrite straggler_index_cut. destruct (cut_spec (undone_by f s) h) as (Hle & Ha & Hs). split.
  - intros m Hm. rewrite skipn_app_l in Hm by exact Hle. apply in_app_or in Hm.
    destruct Hm as [Hm|[Hm|[]]]; [exact (Ha _ Hm)|injection Hm as <-; exact Hw].
  - destruct Hs as [E|([m|m] & Hn & Hq)]; [left; exact E|discriminate|right]. exists m. split; [|exact Hq].
    rewrite nth_error_app1; [exact Hn|]. apply nth_error_Some. rewrite Hn. discriminate.
Qed.

Lemma dropw_rev {A} (q : A -> bool) h e below : dropw q (rev h) = e :: below -> exists h2, h = rev below ++ e :: h2 /\ q e = false.
Proof.
  induction h as [|x h IH] using rev_ind; [discriminate|]. rewrite rev_app_distr. cbn. destruct (q x) eqn:Ex.
  - intros E. destruct (IH E) as (h2 & -> & Hq). exists (h2 ++ [x]). rewrite <- app_assoc. split; [reflexivity|exact Hq].
  - intros E. injection E as <- <-. exists []. rewrite rev_involutive. split; [reflexivity|exact Ex].
Qed.

Lemma anti_index_spec a hist k : anti_index a hist = Some k ->
  bnd hist k /\ exists j, k <= j /\ nth_error hist j = Some (EProc a) /\ forall q, k <= q < j -> exists m, nth_error hist q = Some (ESent m).
Proof.
  unfold anti_index. rewrite <- (rev_length hist), find_proc_cut.
  destruct (dropw _ (rev hist)) as [|e below] eqn:Ed; [discriminate|]. intros H. injection H as <-.
  destruct (dropw_rev _ _ _ _ Ed) as (h2 & -> & Hq). destruct e as [m|m]; [discriminate|]. apply negb_false_iff, wmsg_eqb_eq in Hq. subst m.
  clear Ed. rewrite group_start_cut. set (h1 := rev below). replace below with (rev h1) by apply rev_involutive.
  fold (cut (fun e => negb (is_proc e)) h1). destruct (cut_spec (fun e => negb (is_proc e)) h1) as (Hk & Hs & _).
  split; [apply bnd_app; [apply cut_bnd; reflexivity|exact Hk]|]. exists (length h1). split; [exact Hk|]. split.
  - rewrite nth_error_app2, Nat.sub_diag by apply le_n. reflexivity.
  - intros q Hq. rewrite nth_error_app1 by lia. assert (Hn : nth_error h1 q <> None) by (apply nth_error_Some; lia).
    destruct (nth_error h1 q) as [e|] eqn:En; [|contradiction].
    assert (Hin : In e (skipn (cut (fun e => negb (is_proc e)) h1) h1)).
    { apply (nth_error_In _ (q - cut (fun e => negb (is_proc e)) h1)). rewrite nth_error_skipn_add. replace (_ + _) with q by lia. exact En. }
    apply Hs in Hin. destruct e as [m|m]; [exists m; reflexivity|discriminate].
Qed.
Lemma anti_index_total a hist : In (EProc a) hist -> anti_index a hist <> None.
Proof.
  intros Hin. unfold anti_index. rewrite <- (rev_length hist), find_proc_cut. apply in_rev in Hin. revert Hin. generalize (rev hist). clear.
  intros rh Hin. induction rh as [|e r IH]; [destruct Hin|]. cbn. destruct Hin as [->|Hin]; [cbn; rewrite wmsg_eqb_refl; discriminate|].
  destruct (negb _); [apply IH; exact Hin|discriminate].
Qed.

Lemma newest_below_spec gvt hist j : newest_below gvt (rev hist) (length hist) = Some j ->
  exists m, nth_error hist j = Some (EProc m) /\ (Z.of_N (e_t (wm_ev m)) < gvt)%Z.
Proof.
  rewrite <- (rev_length hist), newest_below_cut.
  destruct (cut_spec (fun e => negb (below_gvt gvt e)) hist) as (_ & _ & Hs). unfold cut in Hs.
  destruct (dropw _ (rev hist)) as [|e0 below]; [discriminate|]. intros H. injection H as <-.
  destruct Hs as [E|([m|m] & He & Hq)]; [discriminate|discriminate|]. exists m. split; [exact He|].
  apply negb_false_iff in Hq. apply Z.ltb_lt. exact Hq.
Qed.

Definition same_gvt (w w' : worker) : Prop :=
  k_gvt w' = k_gvt w /\ k_lastgvt w' = k_lastgvt w /\ k_epoch w' = k_epoch w.
Definition same_lps (w w' : worker) : Prop := k_lps w' = k_lps w /\ k_err w' = k_err w /\ same_gvt w w'.

Lemma same_lps_trans w1 w2 w3 : same_lps w1 w2 -> same_lps w2 w3 -> same_lps w1 w3.
Proof. intros (A1 & A2 & A3 & A4 & A5) (B1 & B2 & B3 & B4 & B5). repeat split; congruence. Qed.

Lemma undo_entry_same w e : same_lps w (undo_entry w e) /\ k_heap (undo_entry w e) = k_heap w /\ k_held (undo_entry w e) = k_held w /\ k_next (undo_entry w e) = k_next w.
Proof.
  unfold undo_entry. destruct e as [m|m].
  - destruct (flag_add (k_flags w) (wm_id m) FLAG_ANTI) as [o f]. destruct (has o FLAG_PROC); repeat split.
  - destruct (flag_sub (k_flags w) (wm_id m) FLAG_PROC) as [o f]. destruct (has o FLAG_ANTI); repeat split.
Qed.
Lemma undo_entry_next w e : k_next (undo_entry w e) = k_next w.
Proof. apply undo_entry_same. Qed.
Lemma undo_all_same es : forall w, let w' := fold_left undo_entry es w in
  same_lps w w' /\ k_heap w' = k_heap w /\ k_held w' = k_held w /\ k_next w' = k_next w.
Proof.
  induction es as [|e es IH]; intros w; cbn [fold_left]; [repeat split|].
  destruct (undo_entry_same w e) as (A1 & A2 & A3 & A4). destruct (IH (undo_entry w e)) as (B1 & B2 & B3 & B4).
  split; [exact (same_lps_trans _ _ _ A1 B1)|repeat split; congruence].
Qed.
Lemma undo_all_lps es w : k_lps (fold_left undo_entry es w) = k_lps w.
Proof. apply undo_all_same. Qed.

(* ScheduleNewEvent for a whole output list: fresh consecutive identities, flag word 0, pushed on the shared list *)
Fixpoint news_from (k : positive) (outs : list event) : list wmsg :=
  match outs with [] => [] | e :: r => mkWm k e :: news_from (Pos.succ k) r end.
Definition sent_state (w : worker) (news : list wmsg) : worker :=
  mkWk (fold_left (fun f m => flag_set f (wm_id m) 0) news (k_flags w)) (rev news ++ k_shared w) (k_heap w) (k_lps w) (k_held w)
       (fold_left (fun k _ => Pos.succ k) news (k_next w)) (k_epoch w) (k_gvt w) (k_lastgvt w) (k_err w).
Lemma send_all_eq outs : forall w acc,
  send_all w outs acc = (sent_state w (news_from (k_next w) outs), rev acc ++ map ESent (news_from (k_next w) outs)).
Proof.
  induction outs as [|e r IH]; intros w acc; cbn [send_all news_from].
  - unfold sent_state. cbn. rewrite app_nil_r. destruct w; reflexivity.
  - rewrite IH. unfold sent_state. cbn. rewrite <- !app_assoc. reflexivity.
Qed.
Lemma news_ev k outs : map wm_ev (news_from k outs) = outs.
Proof. revert k. induction outs as [|e r IH]; intros k; cbn; [reflexivity|]. rewrite IH. reflexivity. Qed.
Lemma news_ids_ge outs : forall k z, In z (news_from k outs) -> (k <= wm_id z)%positive.
Proof.
  induction outs as [|e r IH]; intros k z H; cbn in H; [destruct H|]. destruct H as [<-|H]; [apply Pos.le_refl|].
  apply IH in H. eapply Pos.le_trans; [|exact H]. apply Pos.lt_le_incl, Pos.lt_succ_diag_r.
Qed.

Lemma extract_same w : same_lps w (snd (wq_extract w)) /\ k_flags (snd (wq_extract w)) = k_flags w /\
  k_next (snd (wq_extract w)) = k_next w /\ k_held (snd (wq_extract w)) = k_held w.
Proof. unfold wq_extract. destruct (heap_extract _ _ _ _) as [[m h]|]; repeat split. Qed.
Lemma extract_lps w : k_lps (snd (wq_extract w)) = k_lps w.
Proof. apply extract_same. Qed.
Lemma extract_none w w1 : wq_extract w = (None, w1) -> w1 = wq_transfer w.
Proof. unfold wq_extract. destruct (heap_extract _ _ _ _) as [[m h]|]; [discriminate|]. intros H. injection H as <-. reflexivity. Qed.
Lemma queue_lps w : k_lps (wq_transfer w) = k_lps w. Proof. reflexivity. Qed.

Lemma unhold_all_fold hs : forall w, let w' := fold_left (fun w' h => match h with Some m => wq_insert w' m | None => w' end) hs w in
  same_lps w w' /\ k_heap w' = k_heap w /\ k_held w' = k_held w /\ k_flags w' = k_flags w /\ k_next w' = k_next w.
Proof.
  induction hs as [|h hs IH]; intros w; cbn [fold_left]; [repeat split|].
  destruct (IH (match h with Some m => wq_insert w m | None => w end)) as ((B1 & B2 & B3 & B4 & B5) & B6 & B7 & B8 & B9).
  destruct h; repeat split; assumption.
Qed.
Lemma unhold_all_lps w : k_lps (unhold_all w) = k_lps w.
Proof. apply (unhold_all_fold (k_held w) w). Qed.

Lemma fossil_same_gvt w l : same_gvt w (fossil_lp w l) /\ k_flags (fossil_lp w l) = k_flags w /\ k_next (fossil_lp w l) = k_next w /\
  k_shared (fossil_lp w l) = k_shared w /\ k_heap (fossil_lp w l) = k_heap w /\ k_held (fossil_lp w l) = k_held w /\
  length (k_lps (fossil_lp w l)) = length (k_lps w) /\ forall i, i <> l -> get_lp (fossil_lp w l) i = get_lp w i.
Proof.
  unfold fossil_lp. destruct (newest_below _ _ _); [|repeat split]. destruct (drop_newer _ _) as [|[ref snap] older]; [repeat split|].
  repeat split; [apply put_lp_length|intros i Hi; apply get_put_other; exact Hi].
Qed.

Section Proofs.
Variable p : prog.
Variable ck : nat.

Notation replay := (replay p).
Notation do_rollback := (Worker.do_rollback p).
Notation forward := (Worker.forward p ck).
Notation process_msg := (Worker.process_msg p ck).
Notation run_out := (Worker.run_out p ck).
Notation wstep := (Worker.wstep p ck).
Notation init_lp := (Worker.init_lp p).

Lemma replay_app st a b : replay st (a ++ b) = replay (replay st a) b.
Proof. unfold Worker.replay. apply fold_left_app. Qed.

Lemma do_rollback_unfold w l past ref snap older : drop_newer (x_logs (get_lp w l)) past = (ref, snap) :: older ->
  do_rollback w l past =
  put_lp (fold_left undo_entry (skipn past (x_hist (get_lp w l))) w) l
         (mkLpx (firstn past (x_hist (get_lp w l))) (x_bound (get_lp w l))
                (replay snap (sub (firstn past (x_hist (get_lp w l))) ref past)) ((ref, snap) :: older) (x_rem (get_lp w l)) (x_epoch (get_lp w l))).
Proof. intros Hd. unfold Worker.do_rollback. rewrite Hd. reflexivity. Qed.

Lemma do_rollback_same_gvt w l past : same_gvt w (do_rollback w l past) /\ k_held (do_rollback w l past) = k_held w /\
  k_heap (do_rollback w l past) = k_heap w /\ k_next (do_rollback w l past) = k_next w /\
  length (k_lps (do_rollback w l past)) = length (k_lps w) /\ forall i, i <> l -> get_lp (do_rollback w l past) i = get_lp w i.
Proof.
  unfold Worker.do_rollback. destruct (undo_all_same (skipn past (x_hist (get_lp w l))) w) as ((A1 & A2 & A3) & A4 & A5 & A6). cbn zeta in *.
  set (w1 := fold_left undo_entry _ w) in *.
  assert (Hg : forall i, get_lp w1 i = get_lp w i) by (intros i; unfold get_lp; rewrite A1; reflexivity).
  destruct (drop_newer _ _) as [|[ref snap] older]; (split; [exact A3|]); (split; [exact A5|]); (split; [exact A4|]); (split; [exact A6|]).
  - split; [cbn; rewrite A1; reflexivity|]. intros i _. apply Hg.
  - split; [rewrite put_lp_length, A1; reflexivity|]. intros i Hi. rewrite get_put_other by exact Hi. apply Hg.
Qed.

Definition decr (a b : nat * lpstate) : Prop := fst b < fst a.

Lemma drop_newer_spec logs ref : StronglySorted decr logs ->
  match drop_newer logs ref with
  | [] => forall g, In g logs -> ref < fst g
  | g :: older => exists pre, logs = pre ++ g :: older /\ fst g <= ref /\ forall x, In x pre -> ref < fst x
  end.
Proof.
  induction logs as [|g r IH]; intros Hs; cbn [drop_newer].
  - intros g [].
  - destruct (Nat.leb_spec (fst g) ref) as [Hle|Hgt].
    + exists []. split; [reflexivity|]. split; [exact Hle|intros x []].
    + inversion Hs as [|? ? Hs' Hall]; subst. specialize (IH Hs').
      destruct (drop_newer r ref) as [|g' older].
      * intros x [<-|Hx]; [exact Hgt|apply IH; exact Hx].
      * destruct IH as (pre & E & Hle & Hpre). exists (g :: pre). split; [rewrite E; reflexivity|].
        split; [exact Hle|]. intros x [<-|Hx]; [exact Hgt|apply Hpre; exact Hx].
Qed.

Definition lp_ok (x : lpx) : Prop :=
  exists newer r0 s0,
    x_logs x = newer ++ [(r0, s0)] /\
    StronglySorted decr (x_logs x) /\
    (forall r s, In (r, s) (x_logs x) -> r <= length (x_hist x) /\ s = replay s0 (sub (x_hist x) r0 r)) /\
    x_st x = replay s0 (skipn r0 (x_hist x)).

Definition base (x : lpx) : nat * lpstate := last (x_logs x) (0, dummy_lp).

(* the same with the base named *)
Lemma lp_ok_base x : lp_ok x <->
  x_logs x <> [] /\ StronglySorted decr (x_logs x) /\
  (forall g, In g (x_logs x) -> fst (base x) <= fst g <= length (x_hist x) /\ snd g = replay (snd (base x)) (sub (x_hist x) (fst (base x)) (fst g))) /\
  x_st x = replay (snd (base x)) (skipn (fst (base x)) (x_hist x)).
Proof.
  unfold base. split.
  - intros (newer & r0 & s0 & El & Hs & Hsn & Hst). rewrite El, last_last. cbn [fst snd]. split; [destruct newer; discriminate|].
    split; [rewrite <- El; exact Hs|]. split; [|exact Hst]. intros [r s] Hg. rewrite <- El in Hg. destruct (Hsn r s Hg) as [H1 H2].
    split; [split; [|exact H1]|exact H2]. rewrite El in Hg, Hs. apply in_app_or in Hg. destruct Hg as [Hg|[Hg|[]]]; [|injection Hg as <- _; apply le_n].
    apply Nat.lt_le_incl. exact (sorted_app_cross decr _ _ _ _ Hs Hg (or_introl eq_refl)).
  - intros (Hne & Hs & Hsn & Hst). destruct (exists_last Hne) as (newer & [r0 s0] & El). rewrite El, last_last in *. cbn [fst snd] in *.
    exists newer, r0, s0. rewrite El. split; [reflexivity|]. split; [exact Hs|]. split; [|exact Hst]. intros r s Hg. destruct (Hsn _ Hg) as [[_ H1] H2]. split; assumption.
Qed.
Lemma base_in x : lp_ok x -> In (base x) (x_logs x).
Proof. intros (newer & r0 & s0 & El & _). unfold base. rewrite El, last_last. apply in_or_app. right. left. reflexivity. Qed.
Lemma base_le_len x : lp_ok x -> fst (base x) <= length (x_hist x).
Proof. intros Hok. destruct (proj1 (lp_ok_base x) Hok) as (_ & _ & Hsn & _). apply (Hsn (base x)), base_in, Hok. Qed.
Lemma base_push x (take : bool) g : x_logs x <> [] -> last (if take then g :: x_logs x else x_logs x) (0, dummy_lp) = base x.
Proof. intros Hne. unfold base. destruct take; [|reflexivity]. destruct (x_logs x); [contradiction|reflexivity]. Qed.

Lemma log_cut x tgt ref snap older : lp_ok x -> drop_newer (x_logs x) tgt = (ref, snap) :: older ->
  exists pre, x_logs x = pre ++ (ref, snap) :: older /\ ref <= tgt /\ fst (base x) <= ref <= length (x_hist x) /\
    snap = replay (snd (base x)) (sub (x_hist x) (fst (base x)) ref) /\
    base (mkLpx (x_hist x) (x_bound x) (x_st x) ((ref, snap) :: older) (x_rem x) (x_epoch x)) = base x /\
    (forall g, In g older -> fst g < ref) /\ (forall g, In g pre -> ref < fst g).
Proof.
  intros Hok Hd. apply lp_ok_base in Hok. destruct Hok as (_ & Hs & Hsn & _).
  pose proof (drop_newer_spec (x_logs x) tgt Hs) as Hspec. rewrite Hd in Hspec. destruct Hspec as (pre & E & Hle & Hpre).
  exists pre. split; [exact E|]. split; [exact Hle|]. destruct (Hsn (ref, snap)) as [H1 H2]; [rewrite E; apply in_or_app; right; left; reflexivity|].
  split; [exact H1|]. split; [exact H2|]. split; [unfold base; cbn [x_logs]; rewrite E; symmetry; apply last_suffix; discriminate|]. rewrite E in Hs. split.
  - intros g Hg. apply sorted_app_r in Hs. inversion Hs as [|? ? _ Hall]; subst. rewrite Forall_forall in Hall. exact (Hall g Hg).
  - intros g Hg. exact (sorted_app_cross decr _ _ _ _ Hs Hg (or_introl eq_refl)).
Qed.

Lemma drop_newer_some x past : lp_ok x -> fst (base x) <= past -> drop_newer (x_logs x) past <> [].
Proof.
  intros Hok Hr0 Hd. pose proof (base_in x Hok) as Hin. apply lp_ok_base in Hok. destruct Hok as (_ & Hs & _).
  pose proof (drop_newer_spec (x_logs x) past Hs) as Hspec. rewrite Hd in Hspec.
  specialize (Hspec _ Hin). lia.
Qed.

Lemma rollback_lp_ok x past ref snap older :
  lp_ok x -> drop_newer (x_logs x) past = (ref, snap) :: older ->
  let hist' := firstn past (x_hist x) in
  lp_ok (mkLpx hist' (x_bound x) (replay snap (sub hist' ref past)) ((ref, snap) :: older) (x_rem x) (x_epoch x)).
Proof.
  intros Hok Hd hist'. destruct (log_cut x past ref snap older Hok Hd) as (pre & E & Hle & [Hr0 Hrl] & Hsnap & Eb & Hold & _).
  apply lp_ok_base in Hok. destruct Hok as (_ & Hs & Hsn & _). apply lp_ok_base.
  unfold base in *. cbn [x_logs x_hist x_st] in *. rewrite Eb. split; [discriminate|]. split; [rewrite E in Hs; exact (sorted_app_r _ _ _ Hs)|]. split.
  - intros g Hg. assert (Hgr : fst g <= ref) by (destruct Hg as [<-|Hg]; [apply le_n|apply Nat.lt_le_incl, Hold, Hg]).
    destruct (Hsn g) as [[H1 H2] H3]; [rewrite E; apply in_or_app; right; exact Hg|]. unfold hist'. rewrite firstn_length, sub_firstn by lia.
    split; [lia|exact H3].
  - rewrite Hsnap, <- replay_app. f_equal. unfold hist'.
    rewrite <- (sub_firstn (x_hist x) past _ ref Hle), <- (sub_over (firstn past (x_hist x)) _ past) by (rewrite firstn_length; lia).
    symmetry. apply sub_split; assumption.
Qed.

Definition all_sent (es : list entry) : Prop := Forall (fun e => is_proc e = false) es.
Lemma all_sent_map ms : all_sent (map ESent ms).
Proof. apply Forall_forall. intros e He. apply in_map_iff in He. destruct He as (m & <- & _). reflexivity. Qed.
Lemma replay_sent st es : all_sent es -> replay st es = st.
Proof.
  induction es as [|e es IH]; intros H; [reflexivity|]. inversion H as [|? ? He Hes]; subst.
  destruct e as [m|m]; [|discriminate]. cbn. apply IH. exact Hes.
Qed.

(* the kept part of the log: everything newer than the selected checkpoint, and that checkpoint *)
Lemma fossil_kept (logs pre : list (nat * lpstate)) g older : logs = pre ++ g :: older ->
  firstn (length logs - length (g :: older) + 1) logs = pre ++ [g].
Proof.
  intros ->. rewrite app_length. replace (length pre + length (g :: older) - length (g :: older) + 1) with (length (pre ++ [g])) by (rewrite app_length; cbn; lia).
  change (pre ++ g :: older) with (pre ++ [g] ++ older). rewrite app_assoc, firstn_app_l, firstn_all by lia. reflexivity.
Qed.

Lemma sorted_map_rebase (logs : list (nat * lpstate)) ref : StronglySorted decr logs -> (forall g, In g logs -> ref <= fst g) ->
  StronglySorted decr (map (fun g => (fst g - ref, snd g)) logs).
Proof.
  induction logs as [|g r IH]; intros Hs Hge; cbn; [constructor|]. inversion Hs as [|? ? Hs' Hall]; subst.
  constructor; [apply IH; [exact Hs'|intros x Hx; apply Hge; right; exact Hx]|].
  rewrite Forall_forall in *. intros y Hy. apply in_map_iff in Hy. destruct Hy as (z & <- & Hz).
  specialize (Hall z Hz). unfold decr in *. cbn. pose proof (Hge z (or_intror Hz)). pose proof (Hge g (or_introl eq_refl)). lia.
Qed.

(* structure of the history: the markers before a processed message are exactly what it sent *)
Fixpoint hist_ok (st : lpstate) (pend : list event) (es : list entry) : Prop :=
  match es with
  | [] => pend = []
  | ESent m :: r => hist_ok st (pend ++ [wm_ev m]) r
  | EProc m :: r => pend = snd (handle p (wm_ev m) st) /\ hist_ok (fst (handle p (wm_ev m) st)) [] r
  end.

Lemma hist_ok_split es : forall st pend k, hist_ok st pend es -> 0 < k -> k <= length es ->
  (exists m, nth_error es (pred k) = Some (EProc m)) ->
  hist_ok st pend (firstn k es) /\ hist_ok (replay st (firstn k es)) [] (skipn k es).
Proof.
  induction es as [|e es IH]; intros st pend k H Hk Hle Hb; [cbn in Hle; lia|].
  destruct k as [|k]; [lia|]. cbn [pred] in Hb. cbn [firstn skipn].
  destruct k as [|k].
  - (* the boundary is right after e *)
    destruct Hb as (m & Hm). cbn in Hm. injection Hm as ->. cbn in H. destruct H as [Hp Hr].
    cbn [firstn hist_ok]. split; [split; [exact Hp|reflexivity]|]. cbn. exact Hr.
  - destruct e as [m|m]; cbn [hist_ok] in H |- *.
    + destruct (IH st (pend ++ [wm_ev m]) (S k) H ltac:(lia) ltac:(cbn in Hle; lia) Hb) as [H1 H2].
      split; [exact H1|]. cbn [Worker.replay fold_left] in *. exact H2.
    + destruct H as [Hp Hr].
      destruct (IH _ [] (S k) Hr ltac:(lia) ltac:(cbn in Hle; lia) Hb) as [H1 H2].
      split; [split; [exact Hp|exact H1]|]. exact H2.
Qed.

Lemma hist_ok_bnd es st k : hist_ok st [] es -> bnd es k -> k <= length es ->
  hist_ok st [] (firstn k es) /\ hist_ok (replay st (firstn k es)) [] (skipn k es).
Proof.
  intros H [->|Hb] Hle.
  - cbn. split; [reflexivity|exact H].
  - destruct k as [|k]; [cbn; split; [reflexivity|exact H]|]. apply hist_ok_split; [exact H|lia|exact Hle|exact Hb].
Qed.

Lemma hist_ok_append es : forall st pend (m : wmsg) news,
  hist_ok st pend es -> (es = [] -> pend = []) ->
  map wm_ev news = snd (handle p (wm_ev m) (replay st es)) ->
  hist_ok st pend (es ++ map ESent news ++ [EProc m]).
Proof.
  induction es as [|e es IH]; intros st pend m news H Hnil Eouts.
  - specialize (Hnil eq_refl). subst pend. cbn [app Worker.replay fold_left] in *. revert Eouts. change (map wm_ev news) with ([] ++ map wm_ev news).
    generalize (@nil event). induction news as [|x ms IHm]; intros acc E; cbn [map app hist_ok] in *; [rewrite app_nil_r in E; split; [exact E|reflexivity]|].
    apply IHm. rewrite <- app_assoc. exact E.
  - destruct e as [me|me]; cbn [app hist_ok] in *.
    + apply (IH st (pend ++ [wm_ev me]) m news H); [intros ->; cbn in H; destruct pend; discriminate|exact Eouts].
    + destruct H as [Hp Hr]. split; [exact Hp|]. apply (IH _ [] m news Hr); [reflexivity|exact Eouts].
Qed.

Definition lp_wf (x : lpx) : Prop :=
  hist_ok (snd (base x)) [] (skipn (fst (base x)) (x_hist x)) /\ forall g, In g (x_logs x) -> bnd (x_hist x) (fst g).
Definition lp_ok2 (x : lpx) : Prop := lp_ok x /\ lp_wf x.

Lemma wf_from x k : lp_wf x -> bnd (x_hist x) k -> fst (base x) <= k ->
  hist_ok (replay (snd (base x)) (sub (x_hist x) (fst (base x)) k)) [] (skipn k (x_hist x)).
Proof.
  intros [Hh _] Hb Hk. pose proof (bnd_le _ _ Hb) as Hkl.
  destruct (hist_ok_bnd _ _ (k - fst (base x)) Hh) as [_ H2]; [apply bnd_skipn; assumption|rewrite skipn_length; lia|].
  rewrite skipn_skipn in H2. replace (k - fst (base x) + fst (base x)) with k in H2 by lia. exact H2.
Qed.

Lemma rollback_lp_wf x past ref snap older :
  lp_ok x -> lp_wf x -> drop_newer (x_logs x) past = (ref, snap) :: older -> bnd (x_hist x) past ->
  let hist' := firstn past (x_hist x) in
  lp_wf (mkLpx hist' (x_bound x) (replay snap (sub hist' ref past)) ((ref, snap) :: older) (x_rem x) (x_epoch x)).
Proof.
  intros Hok [Hh Hb] Hd Hbp hist'. destruct (log_cut x past ref snap older Hok Hd) as (pre & E & Hle & [Hr0 Hrl] & _ & Eb & Hold & _).
  pose proof (bnd_le _ _ Hbp) as Hpl. unfold lp_wf, base in *. cbn [x_logs x_hist] in *. rewrite Eb. split.
  - unfold hist'. rewrite skipn_firstn_comm.
    apply (hist_ok_bnd _ _ (past - fst (last (x_logs x) (0, dummy_lp))) Hh); [apply bnd_skipn; [exact Hbp|lia]|rewrite skipn_length; lia].
  - intros g Hg. apply bnd_firstn; [apply Hb; rewrite E; apply in_or_app; right; exact Hg|].
    destruct Hg as [<-|Hg]; [exact Hle|]. specialize (Hold g Hg). lia.
Qed.

Lemma forward_lp_ok2 x (m : wmsg) news : lp_ok2 x -> map wm_ev news = snd (handle p (wm_ev m) (x_st x)) ->
  let st' := fst (handle p (wm_ev m) (x_st x)) in
  let hist' := x_hist x ++ map ESent news ++ [EProc m] in
  forall take b rem,
  lp_ok2 (mkLpx hist' b st' (if take : bool then (length hist', st') :: x_logs x else x_logs x) rem (x_epoch x)).
Proof.
  intros [Hok [Hh Hb]] Eouts st' hist' take b rem. pose proof (base_le_len x Hok) as Hr0. apply lp_ok_base in Hok. destruct Hok as (Hne & Hs & Hsn & Hst).
  pose proof (base_push x take (length hist', st') Hne) as Eb.
  split.
  - apply lp_ok_base.
    assert (Est : st' = replay (snd (base x)) (skipn (fst (base x)) hist')).
    { unfold hist'. rewrite skipn_app_l by exact Hr0. rewrite replay_app, <- Hst, replay_app, (replay_sent _ _ (all_sent_map news)). reflexivity. }
    assert (Hlen : length (x_hist x) < length hist') by (unfold hist'; rewrite !app_length; cbn; lia).
    assert (Hold : forall g, In g (x_logs x) -> fst (base x) <= fst g <= length hist' /\ snd g = replay (snd (base x)) (sub hist' (fst (base x)) (fst g))).
    { intros g Hg. destruct (Hsn g Hg) as [[H1 H2] H3]. split; [lia|]. unfold hist'. rewrite sub_app_l by exact H2. exact H3. }
    unfold base in *. cbn [x_logs x_hist x_st]. rewrite Eb. split; [destruct take; [discriminate|exact Hne]|]. split; [|split; [|exact Est]].
    + destruct take; [|exact Hs]. constructor; [exact Hs|]. rewrite Forall_forall. intros g Hg. unfold decr. cbn [fst]. destruct (Hsn g Hg) as [[_ H] _]. lia.
    + destruct take; [|exact Hold]. intros g [<-|Hg]; [|apply Hold; exact Hg]. cbn [fst snd]. split; [lia|]. rewrite sub_over by apply le_n. exact Est.
  - unfold lp_wf, base in *. cbn [x_logs x_hist]. rewrite Eb. split.
    + unfold hist'. rewrite skipn_app_l by exact Hr0. apply (hist_ok_append _ _ [] m news Hh (fun _ => eq_refl)). rewrite <- Hst. exact Eouts.
    + assert (Hold : forall g, In g (x_logs x) -> bnd hist' (fst g)).
      { intros g Hg. apply bnd_app; [apply Hb; exact Hg|]. apply (Hsn g Hg). }
      destruct take; [|exact Hold]. intros g [<-|Hg]; [|apply Hold; exact Hg]. cbn [fst]. unfold hist'.
      rewrite app_assoc, app_length. cbn [length]. rewrite Nat.add_1_r. apply bnd_snoc.
Qed.

Lemma fossil_lp_ok2 x tgt ref snap older epoch :
  lp_ok2 x -> drop_newer (x_logs x) tgt = (ref, snap) :: older ->
  let kept := firstn (length (x_logs x) - length (drop_newer (x_logs x) tgt) + 1) (x_logs x) in
  lp_ok2 (mkLpx (skipn ref (x_hist x)) (x_bound x) (x_st x) (map (fun g => (fst g - ref, snd g)) kept) (x_rem x) epoch).
Proof.
  intros [Hok Hwf] Hd kept. destruct (log_cut x tgt ref snap older Hok Hd) as (pre & E & Hle & [Hr0 Hrl] & Hsnap & _ & _ & Hpre).
  assert (Ek : kept = pre ++ [(ref, snap)]) by (unfold kept; rewrite Hd; apply fossil_kept; exact E).
  split.
  - apply lp_ok_base in Hok. destruct Hok as (_ & Hs & Hsn & Hst). apply lp_ok_base.
    unfold base in *. cbn [x_logs x_hist x_st]. rewrite Ek, map_app. cbn [map fst snd]. rewrite last_last, Nat.sub_diag. cbn [fst snd skipn].
    split; [destruct (map _ pre); discriminate|]. split; [|split].
    + rewrite E in Hs. change (pre ++ (ref, snap) :: older) with (pre ++ [(ref, snap)] ++ older) in Hs. rewrite app_assoc in Hs. apply sorted_app_l in Hs.
      replace [(0, snap)] with (map (fun g : nat * lpstate => (fst g - ref, snd g)) [(ref, snap)]) by (cbn; rewrite Nat.sub_diag; reflexivity). rewrite <- map_app.
      apply sorted_map_rebase; [exact Hs|]. intros g Hg. apply in_app_or in Hg. destruct Hg as [Hg|[<-|[]]]; [apply Nat.lt_le_incl, Hpre, Hg|apply le_n].
    + intros g Hg. apply in_app_or in Hg. destruct Hg as [Hg|[<-|[]]]; cbn [fst snd]; [|split; [lia|reflexivity]].
      apply in_map_iff in Hg. destruct Hg as (g1 & <- & Hg1). cbn [fst snd]. specialize (Hpre g1 Hg1).
      destruct (Hsn g1) as [[H1 H2] H3]; [rewrite E; apply in_or_app; left; exact Hg1|]. rewrite skipn_length. split; [lia|].
      rewrite sub_skipn. cbn [Nat.add]. replace (fst g1 - ref + ref) with (fst g1) by lia.
      rewrite H3, (sub_split (x_hist x) _ ref (fst g1)), replay_app, <- Hsnap by lia. reflexivity.
    + rewrite Hst, Hsnap, <- replay_app. f_equal. rewrite <- (sub_over (x_hist x) ref (length (x_hist x))), <- sub_split, sub_over by lia. reflexivity.
  - assert (Hbr : bnd (x_hist x) ref) by (apply (proj2 Hwf (ref, snap)); rewrite E; apply in_or_app; right; left; reflexivity).
    pose proof (wf_from x ref Hwf Hbr Hr0) as Hfrom. rewrite <- Hsnap in Hfrom. destruct Hwf as [_ Hb].
    unfold lp_wf, base. cbn [x_logs x_hist]. rewrite Ek, map_app. cbn [map]. rewrite last_last. cbn [fst snd]. rewrite Nat.sub_diag. split; [exact Hfrom|].
    intros g Hg. apply in_app_or in Hg. destruct Hg as [Hg|[<-|[]]]; [|left; reflexivity].
    apply in_map_iff in Hg. destruct Hg as (g1 & <- & Hg1). cbn [fst].
    apply bnd_skipn; [apply Hb; rewrite E; apply in_or_app; left; exact Hg1|apply Nat.lt_le_incl, Hpre, Hg1].
Qed.

Definition all_ok (w : worker) : Prop := Forall lp_ok (k_lps w).
Definition all_ok2 (w : worker) : Prop := Forall lp_ok2 (k_lps w).

Lemma put_ok2 w l x : all_ok2 w -> (l < length (k_lps w) -> lp_ok2 x) -> all_ok2 (put_lp w l x).
Proof. intros H Hx. apply set_nth_forall; assumption. Qed.
Lemma get_ok2 w l : all_ok2 w -> l < length (k_lps w) -> lp_ok2 (get_lp w l).
Proof. intros H Hl. unfold all_ok2 in H. rewrite Forall_forall in H. apply H, get_lp_in, Hl. Qed.
Lemma all_ok2_of_lps w w' : k_lps w' = k_lps w -> all_ok2 w -> all_ok2 w'.
Proof. unfold all_ok2. intros ->. exact id. Qed.

Lemma do_rollback_ok2 w l past : all_ok2 w -> (l < length (k_lps w) -> bnd (x_hist (get_lp w l)) past) -> all_ok2 (do_rollback w l past).
Proof.
  intros H Hb. destruct (drop_newer (x_logs (get_lp w l)) past) as [|[ref snap] older] eqn:Hd.
  - unfold Worker.do_rollback. rewrite Hd. apply (all_ok2_of_lps w); [apply undo_all_lps|exact H].
  - rewrite (do_rollback_unfold w l past ref snap older Hd). apply put_ok2; [apply (all_ok2_of_lps w); [apply undo_all_lps|exact H]|].
    rewrite undo_all_lps. intros Hl. destruct (get_ok2 w l H Hl) as [Ho Hw]. split.
    + apply (rollback_lp_ok (get_lp w l) past ref snap older Ho Hd).
    + apply (rollback_lp_wf (get_lp w l) past ref snap older Ho Hw Hd (Hb Hl)).
Qed.

Lemma fix_bound_hist x : x_hist (fix_bound x) = x_hist x.
Proof. unfold fix_bound. destruct (x_hist x) eqn:E; [cbn; reflexivity|exact E]. Qed.
Lemma fix_bound_logs x : x_logs (fix_bound x) = x_logs x.
Proof. unfold fix_bound. destruct (x_hist x); reflexivity. Qed.
Lemma fix_bound_st x : x_st (fix_bound x) = x_st x.
Proof. unfold fix_bound. destruct (x_hist x); reflexivity. Qed.

Lemma fix_bound_ok2 x : lp_ok2 x -> lp_ok2 (fix_bound x).
Proof. unfold lp_ok2, lp_ok, lp_wf, base. rewrite fix_bound_hist, fix_bound_logs, fix_bound_st. exact id. Qed.

Lemma fossil_ok2 w l : all_ok2 w -> all_ok2 (fossil_lp w l).
Proof.
  intros H. unfold fossil_lp.
  destruct (newest_below (k_gvt w) (rev (x_hist (get_lp w l))) (length (x_hist (get_lp w l)))) as [past|]; [|exact H].
  destruct (drop_newer (x_logs (get_lp w l)) (past + 1)) as [|[ref snap] older] eqn:Hd; [exact H|].
  apply put_ok2; [exact H|]. intros Hl.
  pose proof (fossil_lp_ok2 (get_lp w l) (past + 1) ref snap older (k_epoch w) (get_ok2 w l H Hl) Hd) as Hf. rewrite Hd in Hf. exact Hf.
Qed.

Lemma forward_eq w l m : forward w l m =
  let x := get_lp w l in
  let news := news_from (k_next w) (snd (handle p (wm_ev m) (x_st x))) in
  let hist' := x_hist x ++ map ESent news ++ [EProc m] in
  let take := Nat.leb ck (S (x_rem x)) in
  put_lp (sent_state w news) l
    (mkLpx hist' (Z.of_N (e_t (wm_ev m))) (fst (handle p (wm_ev m) (x_st x)))
           (if take then (length hist', fst (handle p (wm_ev m) (x_st x))) :: x_logs x else x_logs x) (if take then 0 else S (x_rem x)) (x_epoch x)).
Proof. unfold Worker.forward. destruct (handle p (wm_ev m) (x_st (get_lp w l))) as [st' outs]. rewrite send_all_eq. reflexivity. Qed.

Lemma forward_ok2 w l m : all_ok2 w -> all_ok2 (forward w l m).
Proof.
  intros H. rewrite forward_eq. cbn zeta. apply put_ok2; [exact H|]. intros Hl.
  apply (forward_lp_ok2 (get_lp w l) m _ (get_ok2 w l H Hl)), news_ev.
Qed.

(* the collection process_msg starts when the LP has not yet seen the current fossil epoch *)
Definition lazy_fossil_of (w : worker) (l : nat) : worker :=
  if Nat.eqb (x_epoch (get_lp w l)) (k_epoch w) then w else let w' := fossil_lp w l in put_lp w' l (fix_bound (get_lp w' l)).

Lemma lazy_fossil_ok2 w l : all_ok2 w -> all_ok2 (lazy_fossil_of w l).
Proof.
  intros H. unfold lazy_fossil_of. destruct (Nat.eqb _ _); [exact H|]. apply put_ok2; [apply fossil_ok2; exact H|].
  intros Hl. apply fix_bound_ok2, get_ok2; [apply fossil_ok2; exact H|exact Hl].
Qed.

(* process_msg after the extraction of m, by the flag word the fetch-add of PROCESSED finds: 0 an ordinary message (possibly a
   straggler), 1 a message cancelled while pending (dropped), 3 the cancellation notice of a message the LP has processed *)
Lemma process_msg_flag0 w m w1 : wq_extract w = (Some m, w1) ->
  let l := N.to_nat (e_dest (wm_ev m)) in let w2 := lazy_fossil_of w1 l in
  flag_of (k_flags w2) (wm_id m) = 0%N ->
  let w3 := set_flags w2 (flag_set (k_flags w2) (wm_id m) 2) in
  let x := get_lp w3 l in
  let strag := match last_proc (x_hist x) with
               | Some lastm => Z.leb (Z.of_N (e_t (wm_ev m))) (x_bound x) && wbefore (k_flags w3) m lastm
               | None => false
               end in
  process_msg w = forward (if strag then do_rollback w3 l (straggler_index (k_flags w3) m (x_hist x)) else w3) l m.
Proof. intros E l w2 Hf. unfold Worker.process_msg. rewrite E. fold l. fold (lazy_fossil_of w1 l). fold w2. unfold flag_add. rewrite Hf. reflexivity. Qed.
Lemma process_msg_flag1 w m w1 : wq_extract w = (Some m, w1) ->
  let l := N.to_nat (e_dest (wm_ev m)) in let w2 := lazy_fossil_of w1 l in
  flag_of (k_flags w2) (wm_id m) = 1%N ->
  let w3 := set_flags w2 (flag_set (k_flags w2) (wm_id m) 3) in
  process_msg w = put_lp w3 l (fix_bound (get_lp w3 l)).
Proof. intros E l w2 Hf. unfold Worker.process_msg. rewrite E. fold l. fold (lazy_fossil_of w1 l). fold w2. unfold flag_add. rewrite Hf. reflexivity. Qed.
Lemma process_msg_flag3 w m w1 : wq_extract w = (Some m, w1) ->
  let l := N.to_nat (e_dest (wm_ev m)) in let w2 := lazy_fossil_of w1 l in
  flag_of (k_flags w2) (wm_id m) = 3%N ->
  let w3 := set_flags w2 (flag_set (k_flags w2) (wm_id m) 5) in
  let w4 := match anti_index m (x_hist (get_lp w3 l)) with Some past_i => do_rollback w3 l past_i | None => set_err w3 end in
  process_msg w = put_lp w4 l (fix_bound (get_lp w4 l)).
Proof. intros E l w2 Hf. unfold Worker.process_msg. rewrite E. fold l. fold (lazy_fossil_of w1 l). fold w2. unfold flag_add. rewrite Hf. reflexivity. Qed.

Lemma same_gvt_trans w1 w2 w3 : same_gvt w1 w2 -> same_gvt w2 w3 -> same_gvt w1 w3.
Proof. intros (A1 & A2 & A3) (B1 & B2 & B3). repeat split; congruence. Qed.

Lemma process_msg_same_gvt w : same_gvt w (process_msg w).
Proof.
  unfold Worker.process_msg. destruct (extract_same w) as ((_ & _ & Ex) & _). destruct (wq_extract w) as [[m|] w1]; cbn [snd] in Ex; [|exact Ex].
  set (l := N.to_nat (e_dest (wm_ev m))). fold (lazy_fossil_of w1 l).
  assert (E2 : same_gvt w (lazy_fossil_of w1 l)).
  { apply (same_gvt_trans _ _ _ Ex). unfold lazy_fossil_of. destruct (Nat.eqb _ _); [repeat split|apply (fossil_same_gvt w1 l)]. }
  set (w2 := lazy_fossil_of w1 l) in *. destruct (flag_add (k_flags w2) (wm_id m) FLAG_PROC) as [o f]. destruct (has o FLAG_ANTI).
  - apply (same_gvt_trans _ _ _ E2). change (same_gvt w2) with (same_gvt (set_flags w2 f)). destruct (N.eqb o (FLAG_ANTI + FLAG_PROC)); [|repeat split].
    destruct (anti_index m _); [apply do_rollback_same_gvt|repeat split].
  - rewrite forward_eq. apply (same_gvt_trans _ _ _ E2). change (same_gvt w2) with (same_gvt (set_flags w2 f)).
    destruct (match last_proc _ with Some _ => _ | None => false end); [apply do_rollback_same_gvt|repeat split].
Qed.

Lemma process_msg_ok2 w : all_ok2 w -> all_ok2 (process_msg w).
Proof.
  intros H. unfold Worker.process_msg.
  pose proof (extract_lps w) as Ex. destruct (wq_extract w) as [[m|] w1]; cbn [snd] in Ex; [|exact (all_ok2_of_lps _ _ Ex H)].
  set (l := N.to_nat (e_dest (wm_ev m))). fold (lazy_fossil_of w1 l).
  pose proof (lazy_fossil_ok2 w1 l (all_ok2_of_lps _ _ Ex H)) as H2. set (w2 := lazy_fossil_of w1 l) in *.
  destruct (flag_add (k_flags w2) (wm_id m) FLAG_PROC) as [o f].
  assert (H3 : all_ok2 (set_flags w2 f)) by exact H2.
  destruct (has o FLAG_ANTI).
  - set (w4 := if N.eqb o (FLAG_ANTI + FLAG_PROC) then _ else _).
    assert (H4 : all_ok2 w4).
    { unfold w4. destruct (N.eqb _ _); [|exact H3].
      destruct (anti_index _ _) as [k|] eqn:Ea; [|exact H3]. apply do_rollback_ok2; [exact H3|].
      intros _. apply (anti_index_spec _ _ _ Ea). }
    apply put_ok2; [exact H4|]. intros Hl. apply fix_bound_ok2. apply get_ok2; assumption.
  - apply forward_ok2. destruct (match last_proc _ with Some _ => _ | None => false end); [|exact H3].
    apply do_rollback_ok2; [exact H3|]. intros _. apply straggler_index_bnd.
Qed.

Section Script.
Variable P : worker -> Prop.
Hypothesis P_process : forall w, P w -> P (process_msg w).
Hypothesis P_transfer : forall w, P w -> P (wq_transfer w).
Hypothesis P_hold : forall w m w1, P w -> wq_extract w = (Some m, w1) -> P (set_held w1 (k_held w1 ++ [Some m])).
Hypothesis P_unhold : forall i w, P w -> P (unhold i w).
Hypothesis P_unhold_all : forall w, P w -> P (unhold_all w).
Hypothesis P_announce : forall d w, P w -> P (announce d w).

Lemma iter_keeps n : forall w, P w -> P (iter n process_msg w).
Proof. induction n as [|n IH]; intros w H; cbn; [exact H|]. apply IH, P_process, H. Qed.
Lemma run_out_keeps fuel : forall w, P w -> P (fst (run_out fuel w)).
Proof.
  induction fuel as [|f IH]; intros w H; cbn [Worker.run_out]; [exact H|]. unfold wq_peek.
  destruct (k_heap (wq_transfer w)); [apply P_transfer, H|]. apply IH, P_process, P_transfer, H.
Qed.
Lemma hold_keeps k : forall w, P w -> P (hold k w).
Proof.
  induction k as [|k IH]; intros w H; cbn [hold]; [exact H|].
  destruct (wq_extract w) as [[m|] w1] eqn:E; [apply IH, (P_hold w m w1 H E)|]. rewrite (extract_none w w1 E). apply P_transfer, H.
Qed.
Lemma wstep_keeps w o : P w -> P (wstep w o).
Proof.
  intros H. destruct o as [n|k|i| |d|fuel]; cbn [Worker.wstep];
    [apply iter_keeps|apply hold_keeps|apply P_unhold|apply P_unhold_all|apply P_announce|apply run_out_keeps, P_unhold_all]; exact H.
Qed.
Lemma script_keeps ops : forall w, P w -> P (fold_left wstep ops w).
Proof. induction ops as [|o ops IH]; intros w H; cbn; [exact H|]. apply IH, wstep_keeps, H. Qed.
End Script.

(* the initial state: LP_INIT on the LPs one after the other; the l-th one is appended to l existing ones *)
Lemma init_lp_eq w l : init_lp w l =
  let im := mkWm (k_next w) (mkEv (N.of_nat l) 0 LP_INIT_TYPE []) in
  let w0 := mkWk (flag_set (k_flags w) (wm_id im) FLAG_PROC) (k_shared w) (k_heap w) (k_lps w) (k_held w) (Pos.succ (k_next w))
                 (k_epoch w) (k_gvt w) (k_lastgvt w) (k_err w) in
  let news := news_from (Pos.succ (k_next w)) (snd (lp_init p (N.of_nat l))) in
  let hist := map ESent news ++ [EProc im] in
  set_lps (sent_state w0 news) (k_lps w ++ [mkLpx hist 0 (fst (lp_init p (N.of_nat l))) [(length hist, fst (lp_init p (N.of_nat l)))] 0 0]).
Proof. unfold Worker.init_lp. destruct (lp_init p (N.of_nat l)) as [st evs]. rewrite send_all_eq. reflexivity. Qed.

Lemma init_lp_length w l : length (k_lps (init_lp w l)) = S (length (k_lps w)).
Proof. rewrite init_lp_eq. cbn. rewrite app_length. cbn. lia. Qed.
Lemma w_init_keeps (P : worker -> Prop) :
  P (mkWk (PositiveMap.empty N) [] [] [] [] 1%positive 0 0 0 false) -> (forall w, P w -> P (init_lp w (length (k_lps w)))) -> P (w_init p).
Proof.
  intros H0 Hs. unfold w_init. generalize (N.to_nat (p_lps p)). intros n.
  change 0 with (length (k_lps (mkWk (PositiveMap.empty N) [] [] [] [] 1%positive 0 0 0 false))) at 1.
  revert H0. generalize (mkWk (PositiveMap.empty N) [] [] [] [] 1%positive 0 0 0 false).
  induction n as [|n IH]; intros w H; cbn [seq fold_left]; [exact H|]. rewrite <- (init_lp_length w (length (k_lps w))). apply IH, Hs, H.
Qed.

Lemma w_init_length : length (k_lps (w_init p)) = N.to_nat (p_lps p).
Proof.
  assert (G : forall n l w, length (k_lps (fold_left init_lp (seq l n) w)) = length (k_lps w) + n).
  { induction n as [|n IH]; intros l w; cbn [seq fold_left]; [lia|]. rewrite IH, init_lp_length. lia. }
  apply G.
Qed.

Lemma init_lp_ok2 w l : all_ok2 w -> all_ok2 (init_lp w l).
Proof.
  intros H. rewrite init_lp_eq. cbn zeta. apply Forall_app. split; [exact H|]. constructor; [|constructor]. split.
  - apply lp_ok_base. unfold base. cbn [x_logs x_hist x_st last fst snd]. rewrite skipn_all. split; [discriminate|].
    split; [constructor; constructor|]. split; [|reflexivity]. intros g [<-|[]]. cbn [fst snd]. unfold sub. rewrite Nat.sub_diag. split; [lia|reflexivity].
  - unfold lp_wf, base. cbn [x_logs x_hist last fst snd]. split; [rewrite skipn_all; reflexivity|].
    intros g [<-|[]]. cbn [fst]. rewrite app_length, Nat.add_1_r. apply bnd_snoc.
Qed.

Theorem worker_states_wellformed (ops : list wop) : all_ok2 (fold_left wstep ops (w_init p)).
Proof.
  apply script_keeps.
  - apply process_msg_ok2.
  - intros w H. exact H.
  - intros w m w1 H E. apply (all_ok2_of_lps w); [|exact H]. pose proof (extract_lps w) as X. rewrite E in X. exact X.
  - intros i w. apply all_ok2_of_lps. unfold unhold. destruct (k_held w); [reflexivity|]. destruct (nth _ _ None); reflexivity.
  - intros w. apply all_ok2_of_lps, unhold_all_lps.
  - intros d w. apply all_ok2_of_lps. unfold announce, wq_peek. destruct (min_held _ _); [|reflexivity]. destruct (_ || _); reflexivity.
  - apply w_init_keeps; [constructor|]. intros w H. apply init_lp_ok2, H.
Qed.

Theorem worker_states_exact (ops : list wop) : all_ok (fold_left wstep ops (w_init p)).
Proof. exact (Forall_impl _ (fun x (H : lp_ok2 x) => proj1 H) (worker_states_wellformed ops)). Qed.

End Proofs.
