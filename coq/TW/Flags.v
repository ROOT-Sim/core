(* C06: the per-message flag handshake of src/lp/process.c between the sender (cancellation) and the receiver
   (processing, rollback, re-queueing), as a transition system on one local message, with ghost accounting of where
   the message is (copies in the receiver's queue, in the receiver's history, a pending insertion by the sender) and
   whether its buffer has been released.  MSG_FLAG_ANTI = 1, MSG_FLAG_PROCESSED = 2; the word is changed by ADDITION. *)
From Coq Require Import ZArith Bool List.
Import ListNotations.
Local Open Scope Z_scope.

Record fm := mkFm {
  f_word : Z;
  f_q : Z;             (* copies sitting in the receiver's queue *)
  f_hist : bool;       (* in the receiver's history (processed, not undone) *)
  f_pend : bool;       (* the sender saw PROCESSED and has still to insert its copy *)
  f_kill : bool;       (* the receiver extracted the copy of a processed, cancelled message and is annihilating it *)
  f_cancelled : bool;
  f_freed : bool
}.

Definition fm_init : fm := mkFm 0 1 false false false false false.   (* just sent: queued once *)

Inductive fact :=
| Extract        (* receiver: msg_queue_extract + fetch_add(+PROCESSED), dispatch on the previous value *)
| Undo           (* receiver: rollback of this entry: fetch_add(-PROCESSED), re-insert unless ANTI was set *)
| Cancel         (* sender: fetch_add(+ANTI), insert a copy later iff PROCESSED was set *)
| SenderInsert   (* sender: the msg_queue_insert that follows a cancel which saw PROCESSED *)
| Release        (* fossil collection / shutdown: the committed entry is released *)
| FiniQueue.     (* shutdown: msg_queue_fini releases the copy still sitting in the queue *)

(* one step; the second component is the previous flag word returned by the fetch-add (what the code branches on) *)
Definition fstep (m : fm) (a : fact) : option (fm * Z) :=
  if f_freed m then None else
  match a with
  | Extract =>
      if (f_q m <=? 0) || f_kill m then None else
      let prev := f_word m in
      let m1 := mkFm (prev + 2) (f_q m - 1) (f_hist m) (f_pend m) (f_kill m) (f_cancelled m) false in
      if prev =? 0 then Some (mkFm (prev + 2) (f_q m - 1) true (f_pend m) false (f_cancelled m) false, prev)
      else if prev =? 1 then Some (mkFm (prev + 2) (f_q m - 1) (f_hist m) (f_pend m) false (f_cancelled m) true, prev)  (* dropped and released *)
      else if prev =? 3 then Some (mkFm (prev + 2) (f_q m - 1) (f_hist m) (f_pend m) true (f_cancelled m) false, prev)   (* rollback follows *)
      else None
  | Undo =>
      if negb (f_hist m) then None else
      let prev := f_word m in
      if Z.land prev 1 =? 0
      then Some (mkFm (prev - 2) (f_q m + 1) false (f_pend m) (f_kill m) (f_cancelled m) false, prev)          (* re-queued *)
      else Some (mkFm (prev - 2) (f_q m) false (f_pend m) false (f_cancelled m) (f_kill m), prev)               (* not re-queued; released if it is being annihilated *)
  | Cancel =>
      if f_cancelled m then None else
      let prev := f_word m in
      Some (mkFm (prev + 1) (f_q m) (f_hist m) (negb (Z.land prev 2 =? 0)) (f_kill m) true false, prev)
  | SenderInsert =>
      if f_pend m then Some (mkFm (f_word m) (f_q m + 1) (f_hist m) false (f_kill m) (f_cancelled m) false, f_word m) else None
  | Release =>
      if f_hist m && negb (f_cancelled m) && (f_q m =? 0) then Some (mkFm (f_word m) 0 false false false false true, f_word m) else None
  | FiniQueue =>
      if (f_q m =? 1) && negb (f_kill m) && negb (f_pend m) then Some (mkFm (f_word m) 0 false false false (f_cancelled m) true, f_word m) else None
  end.

(* the flag word determines where the message is *)
Definition finv (m : fm) : Prop :=
  f_freed m = true \/
  (f_word m = 0 /\ f_q m = 1 /\ f_hist m = false /\ f_pend m = false /\ f_kill m = false /\ f_cancelled m = false) \/
  (f_word m = 2 /\ f_q m = 0 /\ f_hist m = true /\ f_pend m = false /\ f_kill m = false /\ f_cancelled m = false) \/
  (f_word m = 1 /\ f_hist m = false /\ f_kill m = false /\ f_cancelled m = true /\
     ((f_q m = 1 /\ f_pend m = false) \/ (f_q m = 0 /\ f_pend m = true))) \/
  (f_word m = 3 /\ f_hist m = true /\ f_kill m = false /\ f_cancelled m = true /\
     ((f_q m = 1 /\ f_pend m = false) \/ (f_q m = 0 /\ f_pend m = true))) \/
  (f_word m = 5 /\ f_hist m = true /\ f_kill m = true /\ f_cancelled m = true /\ f_q m = 0 /\ f_pend m = false).

Lemma finv_init : finv fm_init.
Proof. right. left. repeat split. Qed.

Definition live : list fm :=
  [ mkFm 0 1 false false false false false;    (* queued *)
    mkFm 2 0 true  false false false false;    (* processed *)
    mkFm 1 1 false false false true  false;    (* cancelled, not processed; one copy queued ... *)
    mkFm 1 0 false true  false true  false;    (* ... or still to be inserted by the sender *)
    mkFm 3 1 true  false false true  false;    (* cancelled while processed; the sender's copy queued ... *)
    mkFm 3 0 true  true  false true  false;    (* ... or still to be inserted *)
    mkFm 5 0 true  false true  true  false ].  (* that copy extracted: being annihilated *)

Lemma finv_live m : finv m <-> f_freed m = true \/ In m live.
Proof.
  split.
  - intros H. destruct m as [w q h p k c [|]]; [left; reflexivity|right]. unfold finv in H; cbn in H.
    destruct H as [F|[(-> & -> & -> & -> & -> & ->)|[(-> & -> & -> & -> & -> & ->)|[(-> & -> & -> & -> & [[-> ->]|[-> ->]])|
      [(-> & -> & -> & -> & [[-> ->]|[-> ->]])|(-> & -> & -> & -> & -> & ->)]]]]]; [discriminate F|..]; cbn; tauto.
  - intros [F|L]; [left; exact F|right].
    repeat (destruct L as [<-|L]; [unfold finv; cbn; tauto|]). destruct L.
Qed.

Theorem no_step_after_release m a : f_freed m = true -> fstep m a = None.
Proof. intros H. unfold fstep. rewrite H. reflexivity. Qed.

(* the transitions out of the seven places, computed one by one: each leads to one of the seven, or releases the
   message and leaves it nowhere; a message that was not cancelled is released only by Release or FiniQueue *)
Lemma fstep_cases m a : finv m ->
  match fstep m a with
  | Some (m', _) =>
      if f_freed m'
      then f_q m' = 0 /\ f_hist m' = false /\ f_pend m' = false /\ (f_cancelled m = true \/ a = Release \/ a = FiniQueue)
      else In m' live
  | None => True
  end.
Proof.
  intros H. apply finv_live in H. destruct H as [F|L].
  - rewrite (no_step_after_release m a F). exact I.
  - repeat (destruct L as [<-|L]; [destruct a; cbn; tauto|]). destruct L.
Qed.

Theorem fstep_inv m a m' prev : finv m -> fstep m a = Some (m', prev) -> finv m'.
Proof.
  intros H E. apply (fstep_cases m a) in H. rewrite E in H.
  apply finv_live. destruct (f_freed m'); [left; reflexivity|right; exact H].
Qed.

Corollary reachable_words m : finv m -> f_freed m = false -> In (f_word m) [0; 1; 2; 3; 5].
Proof.
  intros [H|[H|[H|[H|[H|H]]]]] Hf; try congruence; destruct H as (-> & _); cbn; tauto.
Qed.

Fixpoint frun (m : fm) (l : list fact) : option fm :=
  match l with [] => Some m | a :: r => match fstep m a with Some (m', _) => frun m' r | None => None end end.

Theorem frun_inv l : forall m m', finv m -> frun m l = Some m' -> finv m'.
Proof.
  induction l as [|a r IH]; intros m m' H E; cbn in E; [injection E as <-; exact H|].
  destruct (fstep m a) as [[m1 pv]|] eqn:S; [|discriminate]. apply (IH m1 m'); [eapply fstep_inv; eassumption|exact E].
Qed.

(* exactly-once: the buffer is released at most once (no step is enabled on a released message, [no_step_after_release]:
   no double free, no use after free), and a message that has been released is nowhere: not queued, not in a history,
   no pending copy *)
Theorem release_is_final m a m' prev : finv m -> fstep m a = Some (m', prev) -> f_freed m' = true ->
  f_q m' = 0 /\ f_hist m' = false /\ f_pend m' = false.
Proof.
  intros H E F. apply (fstep_cases m a) in H. rewrite E, F in H. tauto.
Qed.

(* a message whose send stays valid (never cancelled) is released only by Release, which requires it to be in the
   history and no copy to be queued, or at shutdown by FiniQueue while it is still queued *)
Theorem valid_message_released_only_when_committed m a m' prev :
  finv m -> f_cancelled m = false -> fstep m a = Some (m', prev) -> f_freed m' = true -> a = Release \/ a = FiniQueue \/ f_cancelled m' = true.
Proof.
  intros H C E F. apply (fstep_cases m a) in H. rewrite E, F, C in H. destruct H as (_ & _ & _ & [H|H]); [discriminate H|tauto].
Qed.
