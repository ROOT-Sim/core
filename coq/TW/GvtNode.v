(* Node-level (multi-rank) GVT reduction of gvt.c / gvt.h: two message colours, per-colour send and receive counters, a
   sum-scatter reduction of the old colour's send counts, waiting for the old-colour messages, then the min reduction.
   Ranks, any number of them; every interleaving of event processing, sends, deliveries (arbitrary delay and reordering)
   and protocol steps.  One rank = one node seen from outside (its threads are the subject of TW/GvtData.v, TW/GvtCounters.v).

   Stages of a rank in one round (gvt_node_phase_run):
     Idle -> Started      gvt_start_processing: the accumulator is cleared
          -> Flipped      end of the first thread pass: gvt_phase ^= 1, new messages carry the new colour
          -> Contributed  node_sent_reduce: the old colour's send counts go into the reduce-scatter, counters re-based
          -> Waiting      node_sent_reduce_wait: the collective has completed, [need] = number of old-colour messages addressed here
          -> Ready        node_sent_wait: [need] old-colour messages have been received
          -> Published    second thread pass: value = min(accumulator, queue minimum)
     all Published -> Idle  min reduction: GVT = minimum of the values; colours swap roles for the next round.

   Theorem gvt_node_safe: when the min reduction completes, its result is a lower bound of every queued message, of every
   event in progress and of EVERY message in flight, on every rank. *)
From Coq Require Import List Arith Lia Bool.
From RS Require Import TW.GvtData.
Import ListNotations.

Inductive stage := Idle | Started | Flipped | Contributed | Waiting | Ready | Published.
Definition sn (s : stage) : nat :=
  match s with Idle => 0 | Started => 1 | Flipped => 2 | Contributed => 3 | Waiting => 4 | Ready => 5 | Published => 6 end.

Record rk := mkRk {
  stg : stage; col : bool; acc : option nat; cur : option nat; q : list nat;
  sent : bool -> nat -> nat;         (* remote_msg_seq[colour][dest] - last_seq[colour][dest] *)
  ctr : nat -> nat;                  (* what this rank put into the reduce-scatter *)
  recv : bool -> nat;                (* remote_msg_received[colour] *)
  need : nat;                        (* remote_msg_to_receive *)
  val : option nat                   (* reducing_p of the node *)
}.
Record msg := mkM { mcol : bool; mdst : nat; mts : nat }.
Record st := mkSt { rks : list rk; net : list msg; white : bool }.

Definition upf (f : nat -> nat) (d v : nat) : nat -> nat := fun x => if Nat.eqb x d then v else f x.
Definition upb (f : bool -> nat) (c : bool) (v : nat) : bool -> nat := fun x => if Bool.eqb x c then v else f x.
Definition upbf (f : bool -> nat -> nat) (c : bool) (g : nat -> nat) : bool -> nat -> nat := fun x => if Bool.eqb x c then g else f x.

Definition sum (f : rk -> nat) (l : list rk) : nat := fold_right (fun x a => f x + a) 0 l.
Definition cnt (c : bool) (d : nat) (n : list msg) : nat :=
  length (filter (fun m => Bool.eqb (mcol m) c && Nat.eqb (mdst m) d) n).

Definition set_stage x s := mkRk s (col x) (acc x) (cur x) (q x) (sent x) (ctr x) (recv x) (need x) (val x).

Inductive step : st -> st -> Prop :=
| s_extract : forall s i x t, nth_error (rks s) i = Some x -> cur x = None -> In t (q x) ->
    step s (mkSt (upd (rks s) i (mkRk (stg x) (col x) (omin (acc x) (Some t)) (Some t) (remove1 t (q x)) (sent x) (ctr x) (recv x) (need x) (val x)))
                 (net s) (white s))
| s_local : forall s i x c t, nth_error (rks s) i = Some x -> cur x = Some c -> c <= t ->
    step s (mkSt (upd (rks s) i (mkRk (stg x) (col x) (acc x) (cur x) (t :: q x) (sent x) (ctr x) (recv x) (need x) (val x))) (net s) (white s))
| s_remote : forall s i x c d t, nth_error (rks s) i = Some x -> cur x = Some c -> c <= t -> d < length (rks s) ->
    step s (mkSt (upd (rks s) i (mkRk (stg x) (col x) (acc x) (cur x) (q x) (upbf (sent x) (col x) (upf (sent x (col x)) d (S (sent x (col x) d))))
                                      (ctr x) (recv x) (need x) (val x)))
                 (mkM (col x) d t :: net s) (white s))
| s_finish : forall s i x, nth_error (rks s) i = Some x ->
    step s (mkSt (upd (rks s) i (mkRk (stg x) (col x) (acc x) None (q x) (sent x) (ctr x) (recv x) (need x) (val x))) (net s) (white s))
| s_deliver : forall s n1 m n2 y, net s = n1 ++ m :: n2 -> nth_error (rks s) (mdst m) = Some y ->
    step s (mkSt (upd (rks s) (mdst m) (mkRk (stg y) (col y) (acc y) (cur y) (mts m :: q y) (sent y) (ctr y)
                                             (upb (recv y) (mcol m) (S (recv y (mcol m)))) (need y) (val y)))
                 (n1 ++ n2) (white s))
| s_start : forall s i x, nth_error (rks s) i = Some x -> stg x = Idle -> cur x = None ->
    step s (mkSt (upd (rks s) i (mkRk Started (col x) None None (q x) (sent x) (ctr x) (recv x) (need x) (val x))) (net s) (white s))
| s_flip : forall s i x, nth_error (rks s) i = Some x -> stg x = Started ->
    step s (mkSt (upd (rks s) i (mkRk Flipped (negb (col x)) (acc x) (cur x) (q x) (sent x) (ctr x) (recv x) (need x) (val x))) (net s) (white s))
| s_contrib : forall s i x, nth_error (rks s) i = Some x -> stg x = Flipped ->
    step s (mkSt (upd (rks s) i (mkRk Contributed (col x) (acc x) (cur x) (q x) (upbf (sent x) (white s) (fun _ => 0)) (sent x (white s))
                                      (recv x) (need x) (val x))) (net s) (white s))
| s_reduced : forall s i x, nth_error (rks s) i = Some x -> stg x = Contributed -> (forall y, In y (rks s) -> 3 <= sn (stg y)) ->
    step s (mkSt (upd (rks s) i (mkRk Waiting (col x) (acc x) (cur x) (q x) (sent x) (ctr x) (recv x) (sum (fun y => ctr y i) (rks s)) (val x)))
                 (net s) (white s))
| s_whitedone : forall s i x, nth_error (rks s) i = Some x -> stg x = Waiting -> recv x (white s) = need x ->
    step s (mkSt (upd (rks s) i (mkRk Ready (col x) (acc x) (cur x) (q x) (sent x) (ctr x) (upb (recv x) (white s) 0) (need x) (val x)))
                 (net s) (white s))
| s_publish : forall s i x, nth_error (rks s) i = Some x -> stg x = Ready -> cur x = None ->
    step s (mkSt (upd (rks s) i (mkRk Published (col x) (acc x) None (q x) (sent x) (ctr x) (recv x) (need x) (omin (acc x) (lmin (q x)))))
                 (net s) (white s))
| s_gvt : forall s, (forall y, In y (rks s) -> stg y = Published) ->
    step s (mkSt (map (fun y => mkRk Idle (col y) (acc y) (cur y) (q y) (sent y) (fun _ => 0) (recv y) (need y) (val y)) (rks s))
                 (net s) (negb (white s))).

Lemma sum_upd f l : forall i x x', nth_error l i = Some x -> sum f (upd l i x') + f x = sum f l + f x'.
Proof. induction l as [|h t IH]; intros [|i] x x'; simpl; try discriminate.
  - intros [= ->]. lia.
  - intros Hi. specialize (IH _ _ x' Hi). lia. Qed.
Lemma sum_upd_same f l i x x' : nth_error l i = Some x -> f x' = f x -> sum f (upd l i x') = sum f l.
Proof. intros Hi E. pose proof (sum_upd f l i x x' Hi). lia. Qed.
Lemma sum_ext f g l : (forall x, In x l -> f x = g x) -> sum f l = sum g l.
Proof. induction l as [|h t IH]; intros H; simpl; [reflexivity|]. rewrite (H h (or_introl eq_refl)), IH; [reflexivity|]. intros x Hx. apply H. right. exact Hx. Qed.
Lemma sum_zero f l : (forall x, In x l -> f x = 0) -> sum f l = 0.
Proof. intros H. rewrite (sum_ext f (fun _ => 0) l H). clear H. induction l; simpl; auto. Qed.
Lemma sum_map f g l : sum f (map g l) = sum (fun x => f (g x)) l.
Proof. induction l as [|h t IH]; simpl; auto. Qed.
Lemma upd_length {A} (l : list A) i x : length (upd l i x) = length l.
Proof. revert i; induction l as [|h t IH]; intros [|i]; simpl; auto. Qed.
Lemma nth_upd_same {A} (l : list A) : forall i x x', nth_error l i = Some x -> nth_error (upd l i x') i = Some x'.
Proof. induction l as [|h t IH]; intros [|i] x x'; simpl; try discriminate; [reflexivity|apply IH]. Qed.
Lemma nth_upd_other {A} (l : list A) : forall i j x', i <> j -> nth_error (upd l i x') j = nth_error l j.
Proof. induction l as [|h t IH]; intros [|i] [|j] x' H; simpl; try reflexivity; try congruence. apply IH. lia. Qed.
Lemma nth_upd_inv {A} (l : list A) i j x x' y : nth_error l i = Some x -> nth_error (upd l i x') j = Some y ->
  i <> j /\ nth_error l j = Some y \/ i = j /\ y = x'.
Proof.
  intros Hi Hj. destruct (Nat.eq_dec i j) as [<-|Hne].
  - rewrite (nth_upd_same l i x x' Hi) in Hj. injection Hj as <-. auto.
  - rewrite nth_upd_other in Hj by exact Hne. auto.
Qed.
Lemma nth_error_map_inv {A B} (g : A -> B) l : forall d y', nth_error (map g l) d = Some y' -> exists y, nth_error l d = Some y /\ y' = g y.
Proof. intros d y'. rewrite nth_error_map. destruct (nth_error l d) as [y|]; [intros [= <-]; exists y; auto|discriminate]. Qed.
Lemma in_map_all {A B} (g : A -> B) (Q : B -> Prop) l : (forall x, In x l -> Q (g x)) -> forall y, In y (map g l) -> Q y.
Proof. intros H y Hy. apply in_map_iff in Hy. destruct Hy as (x & <- & Hx). apply H. exact Hx. Qed.

Lemma in_app_cons {A} (z m : A) n1 n2 : In z (n1 ++ n2) -> In z (n1 ++ m :: n2).
Proof. rewrite !in_app_iff. simpl. tauto. Qed.

Lemma beqb_sym a b : Bool.eqb a b = Bool.eqb b a.
Proof. destruct a, b; reflexivity. Qed.
Lemma cnt_app c d a b : cnt c d (a ++ b) = cnt c d a + cnt c d b.
Proof. unfold cnt. rewrite filter_app, app_length. reflexivity. Qed.
Lemma cnt_cons c d m n : cnt c d (m :: n) = (if Bool.eqb (mcol m) c && Nat.eqb (mdst m) d then 1 else 0) + cnt c d n.
Proof. unfold cnt. simpl. destruct (_ && _); reflexivity. Qed.
Lemma cnt_zero_in c d n m : cnt c d n = 0 -> In m n -> mdst m = d -> mcol m = negb c.
Proof.
  unfold cnt. intros H Hin Hd. destruct (Bool.eqb (mcol m) c) eqn:Hc; [|destruct (mcol m), c; auto; discriminate].
  assert (Hf : In m (filter (fun m => Bool.eqb (mcol m) c && Nat.eqb (mdst m) d) n)).
  { apply filter_In. split; auto. rewrite Hc, Hd, Nat.eqb_refl. reflexivity. }
  destruct (filter _ n); [destruct Hf|discriminate].
Qed.

Definition tot (s : st) (c : bool) (d : nat) : nat :=
  sum (fun x => sent x c d) (rks s) + (if Bool.eqb c (white s) then sum (fun x => ctr x d) (rks s) else 0).
Definition beta (x : rk) : option nat := match stg x with Idle => None | Published => val x | _ => acc x end.
Definition minbeta (l : list rk) : option nat := fold_right (fun x a => omin (beta x) a) None l.

Record InvP (s : st) : Prop := {
  i_col : forall x, In x (rks s) -> col x = if sn (stg x) <? 2 then white s else negb (white s);
  (* the collective separates the stages *)
  i_sep : forall x y, In x (rks s) -> In y (rks s) -> 4 <= sn (stg x) -> 3 <= sn (stg y);
  i_ctr : forall x, In x (rks s) -> if sn (stg x) <? 3 then (forall d, ctr x d = 0) else (forall d, sent x (white s) d = 0);
  i_need : forall i x, nth_error (rks s) i = Some x -> 4 <= sn (stg x) -> need x = sum (fun y => ctr y i) (rks s);
  i_dst : forall m, In m (net s) -> mdst m < length (rks s);
  i_cnt : forall c d y, nth_error (rks s) d = Some y ->
            if Bool.eqb c (white s) && (5 <=? sn (stg y)) then cnt c d (net s) = 0 /\ recv y c = 0
            else cnt c d (net s) + recv y c = tot s c d
}.
Record InvD (s : st) : Prop := {
  i_acc : forall x c, In x (rks s) -> cur x = Some c -> ole (acc x) c;
  i_cur : forall x c, In x (rks s) -> stg x = Published -> cur x = Some c -> ole (minbeta (rks s)) c;
  i_q : forall x t, In x (rks s) -> stg x = Published -> In t (q x) -> ole (minbeta (rks s)) t;
  i_fl : forall m, In m (net s) -> mcol m = negb (white s) -> ole (minbeta (rks s)) (mts m)
}.
Definition Inv (s : st) : Prop := InvP s /\ InvD s.

Lemma no_white_in_flight s d y : InvP s -> nth_error (rks s) d = Some y -> 5 <= sn (stg y) ->
  forall m, In m (net s) -> mdst m = d -> mcol m = negb (white s).
Proof.
  intros P Hd Hge m Hm Hdst. pose proof (i_cnt s P (white s) d y Hd) as H. apply Nat.leb_le in Hge.
  rewrite Bool.eqb_reflx, Hge in H. destruct H as [H _]. exact (cnt_zero_in _ _ _ m H Hm Hdst).
Qed.
Theorem white_received_before_publishing s d y : Inv s -> nth_error (rks s) d = Some y -> 5 <= sn (stg y) ->
  forall m, In m (net s) -> mdst m = d -> mcol m = negb (white s).
Proof. intros [P _]. exact (no_white_in_flight s d y P). Qed.
Lemma all_red s : InvP s -> (forall y, In y (rks s) -> stg y = Published) -> forall m, In m (net s) -> mcol m = negb (white s).
Proof.
  intros P Hall m Hm. pose proof (i_dst s P m Hm) as Hlt. apply nth_error_Some in Hlt.
  destruct (nth_error (rks s) (mdst m)) as [y|] eqn:Hd; [|congruence].
  apply (no_white_in_flight s (mdst m) y P Hd); auto. rewrite (Hall y (nth_error_In _ _ Hd)). cbn. lia.
Qed.

Lemma nobody_waiting s x : InvP s -> In x (rks s) -> sn (stg x) < 3 -> forall z, In z (rks s) -> sn (stg z) < 4.
Proof. intros P Hx Hlt z Hz. destruct (Nat.lt_ge_cases (sn (stg z)) 4) as [H|H]; [exact H|]. pose proof (i_sep s P z x Hz Hx H). lia. Qed.
Lemma white_sent_zero s d : InvP s -> (forall z, In z (rks s) -> 3 <= sn (stg z)) -> sum (fun z => sent z (white s) d) (rks s) = 0.
Proof.
  intros P Hall. apply sum_zero. intros z Hz. pose proof (i_ctr s P z Hz) as H. specialize (Hall z Hz).
  apply Nat.ltb_ge in Hall. rewrite Hall in H. apply H.
Qed.

Lemma tot_upd s i x x' n c d : nth_error (rks s) i = Some x ->
  tot (mkSt (upd (rks s) i x') n (white s)) c d + (sent x c d + (if Bool.eqb c (white s) then ctr x d else 0)) =
  tot s c d + (sent x' c d + (if Bool.eqb c (white s) then ctr x' d else 0)).
Proof.
  intros Hi. unfold tot. cbn [rks white].
  pose proof (sum_upd (fun y => sent y c d) _ i x x' Hi). pose proof (sum_upd (fun y => ctr y d) _ i x x' Hi).
  destruct (Bool.eqb c (white s)); lia.
Qed.

(* The contribution of the rank is untouched unless nobody is past the collective.  Counting the messages is left to the
   caller. *)
Lemma InvP_upd s i x x' n :
  InvP s -> nth_error (rks s) i = Some x ->
  sn (stg x) <= sn (stg x') ->
  (sn (stg x) < 4 <= sn (stg x') -> forall z, In z (rks s) -> 3 <= sn (stg z)) ->
  col x' = (if sn (stg x') <? 2 then white s else negb (white s)) ->
  (if sn (stg x') <? 3 then forall d, ctr x' d = 0 else forall d, sent x' (white s) d = 0) ->
  ctr x' = ctr x \/ sn (stg x) < 3 /\ sn (stg x') < 4 ->
  (4 <= sn (stg x') -> need x' = sum (fun y => ctr y i) (rks s)) ->
  (forall m, In m n -> mdst m < length (rks s)) ->
  (forall c d y, nth_error (upd (rks s) i x') d = Some y ->
     if Bool.eqb c (white s) && (5 <=? sn (stg y)) then cnt c d n = 0 /\ recv y c = 0
     else cnt c d n + recv y c = tot (mkSt (upd (rks s) i x') n (white s)) c d) ->
  InvP (mkSt (upd (rks s) i x') n (white s)).
Proof.
  intros P Hi Hmono Hsep Hcol Hctr Hsum Hneed Hdst Hcnt. pose proof (nth_error_In _ _ Hi) as Hx.
  constructor; cbn [rks net white].
  - intros y Hy. apply in_upd_inv in Hy. destruct Hy as [->|Hy]; [exact Hcol|apply (i_col s P y Hy)].
  - intros y z Hy Hz Hge. apply in_upd_inv in Hy. apply in_upd_inv in Hz. destruct Hy as [->|Hy], Hz as [->|Hz].
    + lia.
    + destruct (Nat.lt_ge_cases (sn (stg x)) 4); [apply Hsep; auto|apply (i_sep s P x z); auto].
    + pose proof (i_sep s P y x Hy Hx Hge). lia.
    + apply (i_sep s P y z); auto.
  - intros y Hy. apply in_upd_inv in Hy. destruct Hy as [->|Hy]; [exact Hctr|apply (i_ctr s P y Hy)].
  - intros j y Hj Hge. destruct (nth_upd_inv _ _ _ _ _ _ Hi Hj) as [[_ Hj']|[<- ->]]; destruct Hsum as [E|[Hlt Hlt']]; try lia.
    + rewrite (sum_upd_same _ _ i x x' Hi) by (rewrite E; reflexivity). apply (i_need s P j y Hj' Hge).
    + pose proof (nobody_waiting s x P Hx Hlt y (nth_error_In _ _ Hj')). lia.
    + rewrite (sum_upd_same _ _ i x x' Hi) by (rewrite E; reflexivity). apply Hneed. exact Hge.
  - intros m Hm. rewrite upd_length. apply Hdst. exact Hm.
  - exact Hcnt.
Qed.

Definition rank_ok (s : st) (i : nat) (x : rk) : Prop :=
  col x = (if sn (stg x) <? 2 then white s else negb (white s)) /\
  (if sn (stg x) <? 3 then forall d, ctr x d = 0 else forall d, sent x (white s) d = 0) /\
  (if 4 <=? sn (stg x) then need x = sum (fun y => ctr y i) (rks s) else True) /\
  (forall c, if Bool.eqb c (white s) && (5 <=? sn (stg x)) then cnt c i (net s) = 0 /\ recv x c = 0
             else cnt c i (net s) + recv x c = tot s c i).
Lemma rank_inv s i x : InvP s -> nth_error (rks s) i = Some x -> rank_ok s i x.
Proof.
  intros P Hi. pose proof (nth_error_In _ _ Hi) as Hx. split; [apply (i_col s P x Hx)|]. split; [apply (i_ctr s P x Hx)|]. split.
  - destruct (Nat.leb_spec 4 (sn (stg x))); [apply (i_need s P i x Hi); assumption|exact I].
  - intros c. apply (i_cnt s P c i x Hi).
Qed.

(* a step of one rank that neither sends nor receives *)
Lemma InvP_quiet s i x x' :
  InvP s -> nth_error (rks s) i = Some x ->
  (forall c d, sent x' c d + (if Bool.eqb c (white s) then ctr x' d else 0) = sent x c d + (if Bool.eqb c (white s) then ctr x d else 0)) ->
  ctr x' = ctr x \/ sn (stg x) < 3 /\ sn (stg x') < 4 ->
  sn (stg x) <= sn (stg x') ->
  (sn (stg x) < 4 <= sn (stg x') -> forall z, In z (rks s) -> 3 <= sn (stg z)) ->
  (rank_ok s i x -> rank_ok s i x') ->
  InvP (mkSt (upd (rks s) i x') (net s) (white s)).
Proof.
  intros P Hi Etot Hsum Hmono Hsep Hok. destruct (Hok (rank_inv s i x P Hi)) as (R1 & R2 & R3 & R4).
  apply (InvP_upd s i x); auto.
  - intros Hge. apply Nat.leb_le in Hge. rewrite Hge in R3. exact R3.
  - apply (i_dst s P).
  - intros c d y Hd. replace (tot _ c d) with (tot s c d) by (pose proof (tot_upd s i x x' (net s) c d Hi); specialize (Etot c d); lia).
    destruct (nth_upd_inv _ _ _ _ _ _ Hi Hd) as [[_ Hd']|[<- ->]]; [apply (i_cnt s P c d y Hd')|apply R4].
Qed.

Lemma cur_bound s x c : InvD s -> In x (rks s) -> cur x = Some c -> stg x <> Idle -> ole (minbeta (rks s)) c.
Proof.
  intros D Hx Hc Hs. destruct (stg x) eqn:Es; [congruence| | | | | |apply (i_cur s D x c); auto];
    apply (omins_spec beta); exists x; (split; [exact Hx|]); unfold beta; rewrite Es; apply (i_acc s D x c); auto.
Qed.

Lemma InvD_upd s i x x' n :
  InvD s -> nth_error (rks s) i = Some x ->
  (forall u, ole (beta x) u -> ole (beta x') u) ->
  (forall c, cur x' = Some c -> ole (acc x') c) ->
  (stg x' = Published -> forall t, cur x' = Some t \/ In t (q x') -> ole (beta x') t \/ ole (minbeta (rks s)) t) ->
  (forall m, In m n -> mcol m = negb (white s) -> ole (minbeta (rks s)) (mts m)) ->
  InvD (mkSt (upd (rks s) i x') n (white s)).
Proof.
  intros D Hi Hb Ha Hp Hn.
  assert (Hup : forall t, ole (beta x') t \/ ole (minbeta (rks s)) t -> ole (minbeta (upd (rks s) i x')) t) by (intros t; apply (omins_upd beta _ i x x' t Hi Hb)).
  constructor; cbn [rks net white].
  - intros y c Hy. apply in_upd_inv in Hy. destruct Hy as [->|Hy]; [apply Ha|apply (i_acc s D y c Hy)].
  - intros y c Hy Hst Hc. apply Hup. apply in_upd_inv in Hy. destruct Hy as [->|Hy]; [apply (Hp Hst); auto|right; apply (i_cur s D y c); auto].
  - intros y t Hy Hst Ht. apply Hup. apply in_upd_inv in Hy. destruct Hy as [->|Hy]; [apply (Hp Hst); auto|right; apply (i_q s D y t); auto].
  - intros m Hm Hcol. apply Hup. right. apply Hn; auto.
Qed.

(* all ranks Idle: the initial states and the states after the min reduction *)
Lemma InvP_idle l n w : (forall x, In x l -> stg x = Idle /\ col x = w /\ forall d, ctr x d = 0) ->
  (forall m, In m n -> mdst m < length l) ->
  (forall c d y, nth_error l d = Some y -> cnt c d n + recv y c = sum (fun x => sent x c d) l) ->
  InvP (mkSt l n w).
Proof.
  intros H Hdst Hcnt. constructor; cbn [rks net white].
  - intros x Hx. destruct (H x Hx) as (-> & -> & _). reflexivity.
  - intros x y Hx _. destruct (H x Hx) as (-> & _). cbn. lia.
  - intros x Hx. destruct (H x Hx) as (-> & _ & H0). exact H0.
  - intros i x Hi. destruct (H x (nth_error_In _ _ Hi)) as (-> & _). cbn. lia.
  - exact Hdst.
  - intros c d y Hd. destruct (H y (nth_error_In _ _ Hd)) as (-> & _). cbn [sn]. change (5 <=? 0) with false. rewrite andb_false_r.
    unfold tot. cbn [rks white]. rewrite (sum_zero (fun x => ctr x d)) by (intros x Hx; apply (H x Hx)).
    rewrite (Hcnt c d y Hd). destruct (Bool.eqb c w); lia.
Qed.
Lemma InvD_idle s : (forall x, In x (rks s) -> stg x = Idle) -> (forall x, In x (rks s) -> forall c, cur x = Some c -> ole (acc x) c) ->
  (forall m, In m (net s) -> mcol m = white s) -> InvD s.
Proof.
  intros H Ha Hn. constructor; [intros x c Hx; exact (Ha x Hx c)|intros x c Hx Hp|intros x t Hx Hp|intros m Hm Hc].
  - rewrite (H x Hx) in Hp. discriminate.
  - rewrite (H x Hx) in Hp. discriminate.
  - rewrite (Hn m Hm) in Hc. destruct (white s); discriminate.
Qed.

(* [InvP_quiet] for a step that takes rank i out of the stage named by Hs: the stages are computed in the obligations,
   and those that are then immediate are closed *)
Ltac quiet_step s i x Hs :=
  apply (InvP_quiet s i x); unfold rank_ok; cbn [stg col sent ctr recv need]; rewrite ?Hs; cbn [sn]; auto; try lia.

Lemma step_InvP s s' : InvP s -> step s s' -> InvP s'.
Proof.
  intros P S.
  destruct S as [s i x t Hi Hc Ht|s i x c t Hi Hc Hle|s i x c d t Hi Hc Hle Hd|s i x Hi|s n1 m n2 y En Hi|s i x Hi Hs Hc|s i x Hi Hs
                |s i x Hi Hs|s i x Hi Hs Hall|s i x Hi Hs Hrn|s i x Hi Hs Hc|s Hall];
    try pose proof (nth_error_In _ _ Hi) as Hx.
  (* extract, local, finish touch no protocol field *)
  1, 2, 4: apply (InvP_quiet s i x); auto; cbn [stg]; lia.
  - (* remote: the message is counted once in [net] and once by its sender *)
    set (x' := mkRk _ _ _ _ _ _ _ _ _ _). pose proof (i_col s P x Hx) as Hcol.
    set (one := fun c0 d0 => if Bool.eqb c0 (col x) && Nat.eqb d0 d then 1 else 0).
    assert (Hsent : forall c0 d0, sent x' c0 d0 = sent x c0 d0 + one c0 d0).
    { intros c0 d0. unfold one. cbn [sent x']. unfold upbf, upf. destruct (Bool.eqb_spec c0 (col x)) as [->|_]; cbn [andb]; [|lia].
      destruct (Nat.eqb_spec d0 d) as [->|_]; lia. }
    (* the sender of a white message has not flipped *)
    assert (Hone : 2 <= sn (stg x) -> forall d0, one (white s) d0 = 0).
    { intros Hge d0. apply Nat.ltb_ge in Hge. rewrite Hge in Hcol. unfold one. rewrite Hcol, Bool.eqb_negb2. reflexivity. }
    apply (InvP_upd s i x); [exact P|exact Hi|apply le_n|cbn [x' stg]; lia|exact Hcol| |left; reflexivity|apply (i_need s P i x Hi)| |].
    + pose proof (i_ctr s P x Hx) as H3. change (stg x') with (stg x). destruct (Nat.ltb_spec (sn (stg x)) 3); [exact H3|].
      intros d0. rewrite Hsent, H3, Hone by lia. reflexivity.
    + intros m [<-|Hm]; [exact Hd|apply (i_dst s P m Hm)].
    + intros c0 d0 y Hy.
      replace (tot _ c0 d0) with (tot s c0 d0 + one c0 d0) by (pose proof (tot_upd s i x x' (mkM (col x) d t :: net s) c0 d0 Hi); rewrite Hsent in *; cbn [ctr x'] in *; lia).
      rewrite cnt_cons. cbn [mcol mdst]. rewrite (beqb_sym (col x) c0), (Nat.eqb_sym d d0). fold (one c0 d0).
      assert (Hy1 : exists y1, nth_error (rks s) d0 = Some y1 /\ stg y = stg y1 /\ recv y = recv y1)
        by (destruct (nth_upd_inv _ _ _ _ _ _ Hi Hy) as [[_ Hy']|[<- ->]]; eauto).
      destruct Hy1 as (y1 & Hy1 & -> & ->). pose proof (i_cnt s P c0 d0 y1 Hy1) as H6.
      destruct (Bool.eqb_spec c0 (white s)) as [->|_]; cbn [andb] in *; [|lia]. destruct (Nat.leb_spec 5 (sn (stg y1))); [|lia].
      (* a rank is Ready: everybody has contributed, so the sender has flipped *)
      pose proof (i_sep s P y1 x (nth_error_In _ _ Hy1) Hx ltac:(lia)). rewrite Hone by lia. exact H6.
  - (* deliver: the message leaves [net] and is counted by its receiver *)
    rename Hx into Hy. set (y' := mkRk _ _ _ _ _ _ _ _ _ _).
    apply (InvP_upd s (mdst m) y); [exact P|exact Hi|apply le_n|cbn [y' stg]; lia|apply (i_col s P y Hy)|apply (i_ctr s P y Hy)|left; reflexivity|apply (i_need s P _ y Hi)| |].
    + intros z Hz. apply (i_dst s P z). rewrite En. apply in_app_cons. exact Hz.
    + intros c d z Hz. replace (tot _ c d) with (tot s c d) by (pose proof (tot_upd s (mdst m) y y' (n1 ++ n2) c d Hi); cbn [sent ctr y'] in *; lia).
      assert (Hcnt : cnt c d (net s) = cnt c d (n1 ++ n2) + (if Bool.eqb c (mcol m) && Nat.eqb (mdst m) d then 1 else 0))
        by (rewrite En, !cnt_app, cnt_cons, (beqb_sym c); lia).
      destruct (nth_upd_inv _ _ _ _ _ _ Hi Hz) as [[Hne Hz']|[<- ->]].
      * pose proof (i_cnt s P c d z Hz') as H6. apply Nat.eqb_neq in Hne. rewrite Hne, andb_false_r, Nat.add_0_r in Hcnt. rewrite <- Hcnt. exact H6.
      * pose proof (i_cnt s P c _ y Hi) as H6. rewrite Nat.eqb_refl, andb_true_r in Hcnt. cbn [stg recv y']. unfold upb.
        destruct (Bool.eqb_spec c (mcol m)) as [E|_]; [subst c; destruct (_ && _); lia|]. rewrite Hcnt, Nat.add_0_r in H6. exact H6.
  - (* start *) quiet_step s i x Hs.
  - (* flip *) quiet_step s i x Hs. intros (R1 & R). split; [rewrite R1; reflexivity|exact R].
  - (* contrib: the white send counters move into the collective *)
    pose proof (i_ctr s P x Hx) as Hc0. rewrite Hs in Hc0. quiet_step s i x Hs.
    + intros c d. unfold upbf. rewrite Hc0. destruct (Bool.eqb c (white s)) eqn:Ec; [apply Bool.eqb_prop in Ec; subst c|]; lia.
    + intros (R1 & _ & R). split; [exact R1|]. split; [|exact R]. intros d. unfold upbf. rewrite Bool.eqb_reflx. reflexivity.
  - (* reduced *) quiet_step s i x Hs. intros (R1 & R2 & _ & R4). exact (conj R1 (conj R2 (conj eq_refl R4))).
  - (* whitedone *)
    quiet_step s i x Hs. intros (R1 & R2 & R3 & R4). split; [exact R1|]. split; [exact R2|]. split; [exact R3|].
    intros c. specialize (R4 c). unfold upb. destruct (Bool.eqb c (white s)) eqn:Ec; [|exact R4].
    apply Bool.eqb_prop in Ec. subst c. split; [|reflexivity].
    (* everybody has contributed: the total of white messages addressed here is exactly [need] *)
    cbn in R3, R4. unfold tot in R4. rewrite Bool.eqb_reflx, white_sent_zero, <- R3 in R4; [lia|exact P|].
    intros z Hz. apply (i_sep s P x z Hx Hz). rewrite Hs. cbn. lia.
  - (* publish *) quiet_step s i x Hs.
  - (* the min reduction: the colours swap roles; every white message has been received and every white counter is zero *)
    set (g := fun y => mkRk _ _ _ _ _ _ _ _ _ _). apply InvP_idle.
    + apply in_map_all. intros y Hy. cbn. pose proof (i_col s P y Hy) as H. rewrite (Hall y Hy) in H. auto.
    + intros m Hm. rewrite map_length. apply (i_dst s P m Hm).
    + intros c d y' Hd. apply nth_error_map_inv in Hd. destruct Hd as (y & Hd & ->). rewrite sum_map. cbn [recv sent g].
      pose proof (i_cnt s P c d y Hd) as H6. rewrite (Hall y (nth_error_In _ _ Hd)) in H6. unfold tot in H6.
      destruct (Bool.eqb_spec c (white s)) as [->|_]; cbn in H6; [|lia].
      destruct H6 as [-> ->]. rewrite white_sent_zero; [reflexivity|exact P|]. intros z Hz. rewrite (Hall z Hz). cbn. lia.
Qed.

Lemma step_InvD s s' : InvP s -> InvD s -> step s s' -> InvD s'.
Proof.
  intros P D S.
  destruct S as [s i x t Hi Hc Ht|s i x c t Hi Hc Hle|s i x c d t Hi Hc Hle Hd|s i x Hi|s n1 m n2 y En Hi|s i x Hi Hs Hc|s i x Hi Hs
                |s i x Hi Hs|s i x Hi Hs Hall|s i x Hi Hs Hrn|s i x Hi Hs Hc|s Hall];
    try pose proof (nth_error_In _ _ Hi) as Hx.
  (* flip, contrib, reduced, whitedone: the same value, the same data *)
  7-10: apply (InvD_upd s i x); [exact D|exact Hi|unfold beta; rewrite Hs; auto|intros c; apply (i_acc s D x c Hx)|discriminate|apply (i_fl s D)].
  - (* extract: the accumulator absorbs the timestamp *)
    apply (InvD_upd s i x); [exact D|exact Hi| | | |apply (i_fl s D)]; cbn [stg acc cur q].
    + unfold beta. cbn [stg acc val]. destruct (stg x); auto; intros u H; apply ole_omin; auto.
    + intros c [= <-]. apply ole_omin. right. apply le_n.
    + intros Hp u [[= <-]|Hu]; right; [apply (i_q s D x t)|apply (i_q s D x u)]; auto. apply (remove1_in t). exact Hu.
  - (* local: the new timestamp is above the current event *)
    apply (InvD_upd s i x); [exact D|exact Hi|auto|intros c'; apply (i_acc s D x c' Hx)| |apply (i_fl s D)]. cbn [stg cur q].
    intros Hp u [Hu|[<-|Hu]]; right; [apply (i_cur s D x u); auto| |apply (i_q s D x u); auto].
    eapply ole_trans; [apply (i_cur s D x c); auto|exact Hle].
  - (* remote: the message carries the sender's colour; if that is the new colour the sender is inside the round *)
    apply (InvD_upd s i x); [exact D|exact Hi|auto|intros c'; apply (i_acc s D x c' Hx)| |]; cbn [stg cur q].
    + intros Hp u [Hu|Hu]; right; [apply (i_cur s D x u)|apply (i_q s D x u)]; auto.
    + intros m [<-|Hm] Hm'; [|apply (i_fl s D m Hm Hm')]. cbn [mcol mts] in *.
      eapply ole_trans; [apply (cur_bound s x c D Hx Hc)|exact Hle].
      intros Es. pose proof (i_col s P x Hx) as Hcol. rewrite Es, Hm' in Hcol. destruct (white s); discriminate.
  - (* finish *)
    apply (InvD_upd s i x); [exact D|exact Hi|auto|discriminate| |apply (i_fl s D)]. cbn [stg cur q].
    intros Hp u [Hu|Hu]; [discriminate|right; apply (i_q s D x u); auto].
  - (* deliver *)
    rename Hx into Hy.
    apply (InvD_upd s (mdst m) y); [exact D|exact Hi|auto|intros c'; apply (i_acc s D y c' Hy)| |]; cbn [stg cur q].
    2:{ intros z Hz. apply (i_fl s D z). rewrite En. apply in_app_cons. exact Hz. }
    intros Hp u [Hu|[<-|Hu]]; right; [apply (i_cur s D y u); auto| |apply (i_q s D y u); auto].
    (* the destination has published: it has received every white message, so this one carries the new colour *)
    assert (Hm : In m (net s)) by (rewrite En; apply in_elt).
    apply (i_fl s D m Hm). apply (no_white_in_flight s (mdst m) y P Hi); [rewrite Hp; cbn; lia|exact Hm|reflexivity].
  - (* start *)
    apply (InvD_upd s i x); [exact D|exact Hi|unfold beta; rewrite Hs; auto|discriminate|discriminate|apply (i_fl s D)].
  - (* publish: the published value is below the accumulator and below everything queued here *)
    apply (InvD_upd s i x); [exact D|exact Hi| |discriminate| |apply (i_fl s D)]; unfold beta; cbn [stg val cur q].
    + rewrite Hs. intros u H. apply ole_omin. left. exact H.
    + intros _ u [Hu|Hu]; [discriminate|]. left. apply ole_omin. right. apply lmin_spec. exact Hu.
  - (* the min reduction: no white message is in flight, and white is the new colour of the next round *)
    set (g := fun y => mkRk _ _ _ _ _ _ _ _ _ _). apply InvD_idle; cbn [rks net white].
    + apply in_map_all. reflexivity.
    + refine (in_map_all _ _ _ _). intros y Hy c. apply (i_acc s D y c Hy).
    + intros m Hm. rewrite (all_red s P Hall m Hm). reflexivity.
Qed.

Theorem step_inv s s' : Inv s -> step s s' -> Inv s'.
Proof. intros [P D] S. split; [exact (step_InvP s s' P S)|exact (step_InvD s s' P D S)]. Qed.

Definition rk0 (w : bool) (qs : list nat) : rk := mkRk Idle w None None qs (fun _ _ => 0) (fun _ => 0) (fun _ => 0) 0 None.
Definition init (w : bool) (queues : list (list nat)) : st := mkSt (map (rk0 w) queues) [] w.

Lemma init_inv w queues : Inv (init w queues).
Proof.
  split.
  - apply InvP_idle.
    + apply in_map_all. intros qs _. repeat split.
    + intros m [].
    + intros c d y Hd. apply nth_error_map_inv in Hd. destruct Hd as (qs & _ & ->). symmetry. apply sum_zero. apply in_map_all. reflexivity.
  - apply InvD_idle; cbn [init rks net].
    + apply in_map_all. reflexivity.
    + refine (in_map_all _ _ _ _). discriminate.
    + intros m [].
Qed.

Inductive reach (s0 : st) : st -> Prop :=
| r_refl : reach s0 s0
| r_step : forall s s', reach s0 s -> step s s' -> reach s0 s'.

Lemma reach_inv s0 s : Inv s0 -> reach s0 s -> Inv s.
Proof. intros I R. induction R as [|s s' R IH S]; [exact I|]. apply (step_inv s s'); [exact IH|exact S]. Qed.

(* the result of the min reduction *)
Definition gvt_of (s : st) : option nat := fold_right (fun x a => omin (val x) a) None (rks s).

(* in any state that satisfies the invariant, so also at the end of a replayed run ([nrun_inv]) *)
Lemma published_safe s : Inv s -> (forall y, In y (rks s) -> stg y = Published) ->
  (forall y t, In y (rks s) -> In t (q y) -> ole (gvt_of s) t) /\
  (forall y c, In y (rks s) -> cur y = Some c -> ole (gvt_of s) c) /\
  (forall m, In m (net s) -> ole (gvt_of s) (mts m)).
Proof.
  intros [P D] Hall.
  replace (gvt_of s) with (minbeta (rks s)) by (apply omins_ext; intros y Hy; unfold beta; rewrite (Hall y Hy); reflexivity).
  split; [|split].
  - intros y t Hy Ht. apply (i_q s D y t); auto.
  - intros y c Hy Hc. apply (i_cur s D y c); auto.
  - (* every rank is past Ready: no white message is in flight any more *)
    intros m Hm. apply (i_fl s D m Hm). apply (all_red s P Hall m Hm).
Qed.

Theorem gvt_node_safe w queues s : reach (init w queues) s -> (forall y, In y (rks s) -> stg y = Published) ->
  (forall y t, In y (rks s) -> In t (q y) -> ole (gvt_of s) t) /\
  (forall y c, In y (rks s) -> cur y = Some c -> ole (gvt_of s) c) /\
  (forall m, In m (net s) -> ole (gvt_of s) (mts m)).
Proof. intros R. exact (published_safe s (reach_inv _ s (init_inv w queues) R)). Qed.

Inductive op :=
| OExtract (i t : nat) | OLocal (i t : nat) | ORemote (i d t : nat) | OFinish (i : nat) | ODeliver (k : nat)
| OStart (i : nat) | OFlip (i : nat) | OContrib (i : nat) | OReduced (i : nat) | OWhite (i : nat) | OPublish (i : nat) | OGvt.

Definition stage_eqb (a b : stage) : bool := Nat.eqb (sn a) (sn b).
Lemma stage_eqb_eq a b : stage_eqb a b = true -> a = b.
Proof. unfold stage_eqb. intros H. apply Nat.eqb_eq in H. destruct a, b; cbn in H; try reflexivity; discriminate. Qed.
Definition is_none {A} (o : option A) : bool := match o with None => true | Some _ => false end.

Definition nexec (s : st) (o : op) : option st :=
  match o with
  | OExtract i t =>
      match nth_error (rks s) i with
      | Some x => if is_none (cur x) && existsb (Nat.eqb t) (q x)
                  then Some (mkSt (upd (rks s) i (mkRk (stg x) (col x) (omin (acc x) (Some t)) (Some t) (remove1 t (q x)) (sent x) (ctr x) (recv x) (need x) (val x))) (net s) (white s))
                  else None
      | None => None end
  | OLocal i t =>
      match nth_error (rks s) i with
      | Some x => match cur x with
                  | Some c => if c <=? t then Some (mkSt (upd (rks s) i (mkRk (stg x) (col x) (acc x) (cur x) (t :: q x) (sent x) (ctr x) (recv x) (need x) (val x))) (net s) (white s)) else None
                  | None => None end
      | None => None end
  | ORemote i d t =>
      match nth_error (rks s) i with
      | Some x => match cur x with
                  | Some c => if (c <=? t) && (d <? length (rks s))
                              then Some (mkSt (upd (rks s) i (mkRk (stg x) (col x) (acc x) (cur x) (q x) (upbf (sent x) (col x) (upf (sent x (col x)) d (S (sent x (col x) d))))
                                                                   (ctr x) (recv x) (need x) (val x)))
                                              (mkM (col x) d t :: net s) (white s))
                              else None
                  | None => None end
      | None => None end
  | OFinish i =>
      match nth_error (rks s) i with
      | Some x => Some (mkSt (upd (rks s) i (mkRk (stg x) (col x) (acc x) None (q x) (sent x) (ctr x) (recv x) (need x) (val x))) (net s) (white s))
      | None => None end
  | ODeliver k =>
      match nth_error (net s) k with
      | Some m => match nth_error (rks s) (mdst m) with
                  | Some y => Some (mkSt (upd (rks s) (mdst m) (mkRk (stg y) (col y) (acc y) (cur y) (mts m :: q y) (sent y) (ctr y)
                                                                     (upb (recv y) (mcol m) (S (recv y (mcol m)))) (need y) (val y)))
                                         (firstn k (net s) ++ skipn (S k) (net s)) (white s))
                  | None => None end
      | None => None end
  | OStart i =>
      match nth_error (rks s) i with
      | Some x => if stage_eqb (stg x) Idle && is_none (cur x)
                  then Some (mkSt (upd (rks s) i (mkRk Started (col x) None None (q x) (sent x) (ctr x) (recv x) (need x) (val x))) (net s) (white s)) else None
      | None => None end
  | OFlip i =>
      match nth_error (rks s) i with
      | Some x => if stage_eqb (stg x) Started
                  then Some (mkSt (upd (rks s) i (mkRk Flipped (negb (col x)) (acc x) (cur x) (q x) (sent x) (ctr x) (recv x) (need x) (val x))) (net s) (white s)) else None
      | None => None end
  | OContrib i =>
      match nth_error (rks s) i with
      | Some x => if stage_eqb (stg x) Flipped
                  then Some (mkSt (upd (rks s) i (mkRk Contributed (col x) (acc x) (cur x) (q x) (upbf (sent x) (white s) (fun _ => 0)) (sent x (white s))
                                                       (recv x) (need x) (val x))) (net s) (white s)) else None
      | None => None end
  | OReduced i =>
      match nth_error (rks s) i with
      | Some x => if stage_eqb (stg x) Contributed && forallb (fun y => 3 <=? sn (stg y)) (rks s)
                  then Some (mkSt (upd (rks s) i (mkRk Waiting (col x) (acc x) (cur x) (q x) (sent x) (ctr x) (recv x) (sum (fun y => ctr y i) (rks s)) (val x))) (net s) (white s))
                  else None
      | None => None end
  | OWhite i =>
      match nth_error (rks s) i with
      | Some x => if stage_eqb (stg x) Waiting && Nat.eqb (recv x (white s)) (need x)
                  then Some (mkSt (upd (rks s) i (mkRk Ready (col x) (acc x) (cur x) (q x) (sent x) (ctr x) (upb (recv x) (white s) 0) (need x) (val x))) (net s) (white s))
                  else None
      | None => None end
  | OPublish i =>
      match nth_error (rks s) i with
      | Some x => if stage_eqb (stg x) Ready && is_none (cur x)
                  then Some (mkSt (upd (rks s) i (mkRk Published (col x) (acc x) None (q x) (sent x) (ctr x) (recv x) (need x) (omin (acc x) (lmin (q x))))) (net s) (white s))
                  else None
      | None => None end
  | OGvt =>
      if forallb (fun y => stage_eqb (stg y) Published) (rks s)
      then Some (mkSt (map (fun y => mkRk Idle (col y) (acc y) (cur y) (q y) (sent y) (fun _ => 0) (recv y) (need y) (val y)) (rks s)) (net s) (negb (white s)))
      else None
  end.

Lemma is_none_eq {A} (o : option A) : is_none o = true -> o = None.
Proof. destruct o; [discriminate|reflexivity]. Qed.
Lemma guarded {A} (R : A -> Prop) (b : bool) a a' : (b = true -> R a) -> (if b then Some a else None) = Some a' -> R a'.
Proof. destruct b; [intros H [= <-]; auto|discriminate]. Qed.
Lemma nth_error_cut {A} (l : list A) : forall k m, nth_error l k = Some m -> l = firstn k l ++ m :: skipn (S k) l.
Proof.
  induction l as [|a r IH]; intros [|k] m H; cbn in H; try discriminate; [injection H as ->; reflexivity|].
  cbn [firstn skipn app]. f_equal. apply IH. exact H.
Qed.

Theorem nexec_sound s o s' : nexec s o = Some s' -> step s s'.
Proof.
  destruct o as [i t|i t|i d t|i|k|i|i|i|i|i|i|]; cbn [nexec];
    try (destruct (nth_error (rks s) i) as [x|] eqn:Hi; [|discriminate]).
  - apply guarded. intros G. apply andb_true_iff in G. destruct G as [G1 G2].
    apply existsb_exists in G2. destruct G2 as (u & Hu & E). apply Nat.eqb_eq in E. subst u.
    apply s_extract; [exact Hi|apply is_none_eq; exact G1|exact Hu].
  - destruct (cur x) as [c|] eqn:Hc; [|discriminate]. apply guarded. intros G. apply Nat.leb_le in G. rewrite <- Hc.
    apply (s_local s i x c t); assumption.
  - destruct (cur x) as [c|] eqn:Hc; [|discriminate]. apply guarded. intros G. apply andb_true_iff in G. destruct G as [G1 G2].
    apply Nat.leb_le in G1. apply Nat.ltb_lt in G2. rewrite <- Hc. apply (s_remote s i x c d t); assumption.
  - intros [= <-]. apply s_finish. exact Hi.
  - destruct (nth_error (net s) k) as [m|] eqn:Hk; [|discriminate]. destruct (nth_error (rks s) (mdst m)) as [y|] eqn:Hy; [|discriminate].
    intros [= <-]. apply (s_deliver s (firstn k (net s)) m (skipn (S k) (net s)) y); [apply nth_error_cut; exact Hk|exact Hy].
  - apply guarded. intros G. apply andb_true_iff in G. destruct G as [G1 G2].
    apply s_start; [exact Hi|apply stage_eqb_eq; exact G1|apply is_none_eq; exact G2].
  - apply guarded. intros G. apply s_flip; [exact Hi|apply stage_eqb_eq; exact G].
  - apply guarded. intros G. apply s_contrib; [exact Hi|apply stage_eqb_eq; exact G].
  - apply guarded. intros G. apply andb_true_iff in G. destruct G as [G1 G2]. rewrite forallb_forall in G2.
    apply s_reduced; [exact Hi|apply stage_eqb_eq; exact G1|intros y Hy; apply Nat.leb_le; apply G2; exact Hy].
  - apply guarded. intros G. apply andb_true_iff in G. destruct G as [G1 G2].
    apply s_whitedone; [exact Hi|apply stage_eqb_eq; exact G1|apply Nat.eqb_eq; exact G2].
  - apply guarded. intros G. apply andb_true_iff in G. destruct G as [G1 G2].
    apply s_publish; [exact Hi|apply stage_eqb_eq; exact G1|apply is_none_eq; exact G2].
  - apply guarded. intros G. rewrite forallb_forall in G. apply s_gvt. intros y Hy. apply stage_eqb_eq. apply G. exact Hy.
Qed.

Fixpoint nrun (s : st) (ops : list op) : option st :=
  match ops with [] => Some s | o :: r => match nexec s o with Some s' => nrun s' r | None => None end end.
Lemma nrun_reach s0 ops : forall s s', reach s0 s -> nrun s ops = Some s' -> reach s0 s'.
Proof.
  induction ops as [|o r IH]; intros s s' R E; cbn in E; [injection E as <-; exact R|].
  destruct (nexec s o) as [s1|] eqn:E1; [|discriminate]. apply (IH s1 s'); [|exact E]. eapply r_step; [exact R|]. apply (nexec_sound s o s1). exact E1.
Qed.

Theorem nrun_inv w queues ops s : nrun (init w queues) ops = Some s -> Inv s.
Proof.
  intros E. assert (R : reach (init w queues) s) by exact (nrun_reach (init w queues) ops (init w queues) s (r_refl _) E).
  exact (reach_inv _ _ (init_inv w queues) R).
Qed.

(* non-vacuity: two ranks; a white message crosses the flip, a red one is still in flight when both ranks have published *)
Definition ex_ops : list op :=
  [OStart 0; OStart 1; OExtract 0 5; ORemote 0 1 6; OFinish 0; OFlip 0; OFlip 1; OContrib 0; OContrib 1; OReduced 0; OReduced 1;
   OWhite 0; ODeliver 0; OWhite 1; OExtract 1 6; ORemote 1 0 9; OFinish 1; OPublish 0; OPublish 1].
Example ex_round : match nrun (init false [[5]; [7]]) ex_ops with
                   | Some s => forallb (fun y => stage_eqb (stg y) Published) (rks s) = true /\ gvt_of s = Some 5 /\ map mts (net s) = [9]
                   | None => False end.
Proof. vm_compute. repeat split. Qed.
Example ex_premature_wait_refused :   (* rank 1 cannot leave the wait while the white message is in flight *)
  nrun (init false [[5]; [7]]) [OStart 0; OStart 1; OExtract 0 5; ORemote 0 1 6; OFinish 0; OFlip 0; OFlip 1; OContrib 0; OContrib 1; OReduced 0; OReduced 1; OWhite 1] = None.
Proof. vm_compute. reflexivity. Qed.

(* names used by the extracted replay driver *)
Definition gn_init (w : bool) (queues : list (list nat)) : st := init w queues.
Definition gn_exec (s : st) (o : op) : option st := nexec s o.
Definition gn_gvt (s : st) : option nat := gvt_of s.
Definition gn_col (s : st) (i : nat) : bool := match nth_error (rks s) i with Some x => col x | None => false end.
Definition gn_ctr (s : st) (i d : nat) : nat := match nth_error (rks s) i with Some x => ctr x d | None => 0 end.
Definition gn_need (s : st) (i : nat) : nat := match nth_error (rks s) i with Some x => need x | None => 0 end.
Definition gn_recv (s : st) (i : nat) (c : bool) : nat := match nth_error (rks s) i with Some x => recv x c | None => 0 end.
Definition gn_stage (s : st) (i : nat) : nat := match nth_error (rks s) i with Some x => sn (stg x) | None => 0 end.
Fixpoint find_msg (n : list msg) (i : nat) (c : bool) (k : nat) : option nat :=
  match n with
  | [] => None
  | m :: r => if Nat.eqb (mdst m) i && Bool.eqb (mcol m) c then Some k else find_msg r i c (S k)
  end.
Definition gn_find (s : st) (i : nat) (c : bool) : option nat := find_msg (net s) i c 0.
Definition gn_inflight (s : st) : nat := length (net s).

