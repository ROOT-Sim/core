(* Refinement of the worker model (TW/Worker.v: process.c op by op) to the abstract Time Warp machine (Abs/Abs.v), for every
   script: every state the worker reaches by deliveries, late hand-backs, cancellations, GVT announcements and the fossil
   collections they trigger, in any order, is related to a reachable state of the abstract machine (the groups fossil collection
   releases stay on the abstract side as ghosts), so the theorem of the abstract theory applies to process.c's histories: below
   every valid bound they are the sequential execution. *)
From Coq Require Import List ZArith NArith PArith Bool Arith Lia Sorted Permutation FMapPositive.
From RS Require Import Base.Lex Order.MsgOrderDefs Order.MsgOrderProofs Heap.HeapList TW.App TW.Seq TW.Worker TW.WorkerProofs TW.WorkerSafety
  TW.WorkerOnce TW.WorkerOnceProofs TW.WorkerOnceApp TW.AppAbs TW.AppAbs2.
From RS.Abs Require Peel Abs Bridge.
Import ListNotations.

Definition amsg (m : wmsg) : Abs.msg cont :=
  Abs.Build_msg cont (Pos.to_nat (wm_id m)) (N.to_nat (e_dest (wm_ev m))) (cont_of (wm_ev m)).

Lemma amsg_inj a b : amsg a = amsg b -> a = b.
Proof.
  destruct a as [ia [da ta ya pa]], b as [ib [db tb yb pb]]. unfold amsg, cont_of. cbn. intros H. injection H as H1 H2 H3 H4 H5.
  apply Pos2Nat.inj in H1. apply N2Nat.inj in H2. subst. reflexivity.
Qed.
Lemma amsg_id_inj a b : Abs.mid cont (amsg a) = Abs.mid cont (amsg b) -> wm_id a = wm_id b.
Proof. cbn. apply Pos2Nat.inj. Qed.

(* groups: the markers of the messages an event sent, then the event *)
Notation group := (list wmsg * wmsg)%type (only parsing).
Definition flat1 (g : group) : list entry := map ESent (fst g) ++ [EProc (snd g)].
Definition flat (gs : list group) : list entry := flat_map flat1 gs.
Definition ent (g : group) : Abs.entry cont := Abs.Build_entry cont (amsg (snd g)) (map amsg (fst g)).

Lemma flat_app a b : flat (a ++ b) = flat a ++ flat b.
Proof. apply flat_map_app. Qed.
Lemma procs_flat gs : procs_of (flat gs) = map snd gs.
Proof.
  induction gs as [|g gs IH]; [reflexivity|]. cbn [flat flat_map map]. rewrite procs_app. fold (flat gs). rewrite IH.
  unfold flat1. rewrite procs_app, procs_map_sent. reflexivity.
Qed.
Lemma marks_flat gs : marks_of (flat gs) = flat_map fst gs.
Proof.
  induction gs as [|g gs IH]; [reflexivity|]. cbn [flat flat_map]. rewrite marks_app. fold (flat gs). rewrite IH.
  unfold flat1. rewrite marks_app, marks_map_sent. cbn. rewrite app_nil_r. reflexivity.
Qed.

Lemma flat_cons ms m gs : flat ((ms, m) :: gs) = map ESent ms ++ EProc m :: flat gs.
Proof. unfold flat. cbn [flat_map]. unfold flat1 at 1. cbn [fst snd]. rewrite <- app_assoc. reflexivity. Qed.

Lemma hist_ok_groups p es : forall st pend, hist_ok p st pend es ->
  es = [] \/ exists ms m gs, es = map ESent ms ++ EProc m :: flat gs.
Proof.
  induction es as [|e es IH]; intros st pend H; [left; reflexivity|right].
  destruct e as [m|m]; cbn [hist_ok] in H.
  - destruct (IH _ _ H) as [->|(ms & m' & gs & ->)].
    + cbn in H. destruct pend; discriminate.
    + exists (m :: ms), m', gs. reflexivity.
  - destruct H as [_ H]. destruct (IH _ _ H) as [->|(ms & m' & gs & ->)].
    + exists [], m, []. reflexivity.
    + exists [], m, ((ms, m') :: gs). rewrite flat_cons. reflexivity.
Qed.
Lemma hist_ok_flat p es st : hist_ok p st [] es -> exists gs, es = flat gs.
Proof.
  intros H. destruct (hist_ok_groups p es st [] H) as [->|(ms & m & gs & ->)]; [exists []; reflexivity|].
  exists ((ms, m) :: gs). rewrite flat_cons. reflexivity.
Qed.

Lemma flat_cut gs : forall k, bnd (flat gs) k -> k <= length (flat gs) ->
  exists gk gu, gs = gk ++ gu /\ firstn k (flat gs) = flat gk /\ skipn k (flat gs) = flat gu.
Proof.
  induction gs as [|g gs IH]; intros k Hb Hk.
  - cbn in Hk. assert (k = 0) by lia. subst. exists [], []. repeat split.
  - destruct (Nat.eq_dec k 0) as [->|Hk0]; [exists [], (g :: gs); repeat split|].
    cbn [flat flat_map] in *. fold (flat gs) in *.
    assert (Hlen : length (flat1 g) = S (length (fst g))) by (unfold flat1; rewrite app_length, map_length; cbn; lia).
    destruct (Nat.lt_ge_cases k (length (flat1 g))) as [Hlt|Hge].
    + (* inside the first group: impossible for a boundary *)
      exfalso. destruct Hb as [->|(m & Hn)]; [lia|]. rewrite nth_error_app1 in Hn by lia.
      unfold flat1 in Hn. rewrite nth_error_app1 in Hn by (rewrite map_length; lia).
      apply nth_error_In in Hn. apply in_map_iff in Hn. destruct Hn as (z & Hz & _). discriminate.
    + destruct (IH (k - length (flat1 g))) as (gk & gu & E & E1 & E2).
      * destruct (Nat.eq_dec k (length (flat1 g))) as [->|Hne]; [left; lia|right].
        destruct Hb as [->|(m & Hn)]; [lia|]. exists m. rewrite nth_error_app2 in Hn by lia.
        replace (pred (k - length (flat1 g))) with (pred k - length (flat1 g)) by lia. exact Hn.
      * rewrite app_length in Hk. lia.
      * exists (g :: gk), gu. split; [rewrite E; reflexivity|]. cbn [flat flat_map]. fold (flat gk).
        rewrite firstn_app, skipn_app. rewrite firstn_all2 by lia. rewrite skipn_all2 by lia. cbn [app].
        rewrite E1, E2. split; reflexivity.
Qed.

Lemma nth_flat_last (a : list group) g b : nth_error (flat ((a ++ [g]) ++ b)) (pred (length (flat (a ++ [g])))) = Some (EProc (snd g)).
Proof.
  rewrite !flat_app. unfold flat at 2 5. cbn [flat_map]. unfold flat1. rewrite !app_nil_r, !app_assoc, app_length. cbn [length]. rewrite Nat.add_1_r. cbn [pred].
  rewrite <- app_assoc. rewrite nth_error_app2, Nat.sub_diag by apply le_n. reflexivity.
Qed.
Lemma bnd_flat_prefix a b : bnd (flat (a ++ b)) (length (flat a)).
Proof. destruct a as [|g0 a0] using rev_ind; [left; reflexivity|right]. exists (snd g0). apply nth_flat_last. Qed.
Lemma skipn_flat_app (a b : list group) : skipn (length (flat a)) (flat (a ++ b)) = flat b.
Proof. rewrite flat_app, skipn_app, skipn_all, Nat.sub_diag. reflexivity. Qed.
Lemma firstn_flat_app (a b : list group) : firstn (length (flat a)) (flat (a ++ b)) = flat a.
Proof. rewrite flat_app, firstn_app, firstn_all, Nat.sub_diag, firstn_O, app_nil_r. reflexivity. Qed.
Lemma flat_g0_cut g0 gs k : (g0 = [] \/ exists ms im, g0 = [(ms, im)]) -> bnd (flat (g0 ++ gs)) k -> k <= length (flat (g0 ++ gs)) ->
  length (flat g0) <= k -> exists gk gu : list group, gs = gk ++ gu /\ k = length (flat (g0 ++ gk)).
Proof.
  intros Hs Hb Hk Hge. destruct (flat_cut (g0 ++ gs) k Hb Hk) as (gk0 & gu & E & E1 & _).
  assert (Ek : k = length (flat gk0)) by (rewrite <- E1; symmetry; apply firstn_length_le, Hk).
  destruct Hs as [->|(ms & im & ->)]; [exists gk0, gu; split; [exact E|exact Ek]|].
  destruct gk0 as [|g gk]; [exfalso; rewrite Ek, flat_cons, app_length in Hge; cbn in Hge; lia|].
  injection E as <- E. exists gk, gu. split; [exact E|exact Ek].
Qed.

Lemma keep_of_unique {A} (p : A -> bool) (k u : list A) :
  (forall x, In x u -> p x = true) -> (k = [] \/ exists k' x, k = k' ++ [x] /\ p x = false) ->
  Abs.keep_of p (k ++ u) = k /\ Abs.undo_of p (k ++ u) = u.
Proof.
  intros Hu Hk. unfold Abs.keep_of, Abs.undo_of. rewrite rev_app_distr.
  assert (T : forall l r, (forall x, In x l -> p x = true) -> (r = [] \/ exists x r', r = x :: r' /\ p x = false) ->
              Abs.take_while p (l ++ r) = l /\ Abs.drop_while p (l ++ r) = r).
  { induction l as [|y l IH]; intros r Hl Hr; cbn.
    - destruct Hr as [->|(x & r' & -> & Hx)]; cbn; [split; reflexivity|rewrite Hx; split; reflexivity].
    - rewrite (Hl y (or_introl eq_refl)). destruct (IH r (fun x Hx => Hl x (or_intror Hx)) Hr) as [E1 E2]. rewrite E1, E2. split; reflexivity. }
  destruct (T (rev u) (rev k)) as [E1 E2].
  - intros x Hx. apply Hu. apply in_rev. exact Hx.
  - destruct Hk as [->|(k' & x & -> & Hx)]; [left; reflexivity|right]. exists x, (rev k'). rewrite rev_app_distr. split; [reflexivity|exact Hx].
  - rewrite E1, E2, !rev_involutive. split; reflexivity.
Qed.

Lemma rt_wf f m : wf_msg (rt_msg f m).
Proof. unfold wf_msg, rt_msg. cbn. rewrite Nat2Z.id, map_length. lia. Qed.

Lemma content_rt f m : content (rt_msg f m) =
  [Z.of_N (e_t (wm_ev m)); (- Z.land (Z.of_N (flag_of f (wm_id m))) 1)%Z; (- Z.of_N (e_type (wm_ev m)))%Z; Z.of_nat (length (e_pl (wm_ev m)))]
  ++ map (fun b => (- Z.of_N b)%Z) (e_pl (wm_ev m)).
Proof.
  unfold content, rt_msg, payload, anti_bit. cbn [m_t m_flags m_type m_plsize m_pl].
  rewrite Nat2Z.id, firstn_all2 by (rewrite map_length; lia). rewrite map_map. reflexivity.
Qed.

Lemma wbefore_valid f a b : Z.land (Z.of_N (fl f a)) 1 = 0%Z -> Z.land (Z.of_N (fl f b)) 1 = 0%Z ->
  wbefore f a b = cltb (cont_of (wm_ev a)) (cont_of (wm_ev b)).
Proof.
  intros Ha Hb. unfold wbefore. rewrite before_is_lex by apply rt_wf. rewrite !content_rt. unfold fl in *. rewrite Ha, Hb.
  unfold cltb, key, cont_of, c_t, c_type, c_pl. cbn [fst snd]. reflexivity.
Qed.
Lemma wbefore_doomed f a b : Z.land (Z.of_N (fl f a)) 1 = 0%Z -> Z.land (Z.of_N (fl f b)) 1 = 1%Z ->
  wbefore f a b = tltb (cont_of (wm_ev a)) (cont_of (wm_ev b)).
Proof.
  intros Ha Hb. unfold wbefore. rewrite before_is_lex by apply rt_wf. rewrite !content_rt. unfold fl in *. rewrite Ha, Hb.
  unfold tltb, cont_of, c_t. cbn [fst snd app lexltb].
  destruct (Z.ltb_spec (Z.of_N (e_t (wm_ev a))) (Z.of_N (e_t (wm_ev b)))) as [H|H].
  - symmetry. apply N.ltb_lt. lia.
  - destruct (Z.eqb_spec (Z.of_N (e_t (wm_ev a))) (Z.of_N (e_t (wm_ev b)))) as [E|E]; cbn.
    + symmetry. apply N.ltb_ge. lia.
    + symmetry. apply N.ltb_ge. lia.
Qed.

(* what the abstract pool (Live) and the abstract set of cancelled identities (Dm) are, on the worker's side; No5: flag word 5
   only exists inside process_msg *)
Definition Live (f : fmap) (pd : list wmsg) (y : wmsg) : Prop := In y pd /\ (fl f y = 0%N \/ fl f y = 1%N).
Definition Dm (f : fmap) (pd pr : list wmsg) (i : positive) : Prop :=
  exists y, wm_id y = i /\ ((In y pd /\ fl f y = 1%N) \/ (In y pr /\ (fl f y = 3%N \/ fl f y = 5%N))).
Definition Mk0 (f : fmap) (pd mk : list wmsg) : Prop := forall o, In o mk -> fl f o = 0%N -> In o pd.
Definition No5 (f : fmap) (l : list wmsg) : Prop := forall y, In y l -> fl f y <> 5%N.

Lemma Live_perm f pd pd' y : Permutation pd pd' -> (Live f pd y <-> Live f pd' y).
Proof. intros P. unfold Live. split; intros [H1 H2]; (split; [|exact H2]); [apply (Permutation_in _ P H1)|apply (Permutation_in _ (Permutation_sym P) H1)]. Qed.
Lemma Dm_perm f pd pd' pr i : Permutation pd pd' -> (Dm f pd pr i <-> Dm f pd' pr i).
Proof.
  intros P. unfold Dm. split; intros (y & Ey & H); exists y; (split; [exact Ey|]); destruct H as [[H1 H2]|H]; try (right; exact H); left; (split; [|exact H2]);
    [apply (Permutation_in _ P H1)|apply (Permutation_in _ (Permutation_sym P) H1)].
Qed.
Lemma Dm_ext f pd pr pr' i : (forall y, In y pr <-> In y pr') -> (Dm f pd pr i <-> Dm f pd pr' i).
Proof.
  intros H. unfold Dm. split; intros (y & Ey & Hy); exists y; (split; [exact Ey|]); destruct Hy as [Hy|[Hy Hf]]; try (left; exact Hy); right; (split; [|exact Hf]); apply H; exact Hy.
Qed.

Lemma fl_set f o v y : fl (flag_set f (wm_id o) v) y = if Pos.eqb (wm_id y) (wm_id o) then v else fl f y.
Proof.
  destruct (Pos.eqb_spec (wm_id y) (wm_id o)) as [E|E].
  - unfold fl. rewrite E. unfold flag_of, flag_set. rewrite PositiveMap.gss. reflexivity.
  - apply fl_set_other. exact E.
Qed.

(* The general step, as for [Loc_move]: the flag word and the places of ONE message m change.  What Live and Dm gain or lose is
   read off m alone. *)
Lemma sets_move f f' m pd pr mk pd' pr' mk' :
  (forall x, In x (pd ++ pr ++ mk) -> wm_id x = wm_id m -> x = m) ->
  (forall x, wm_id x <> wm_id m -> fl f' x = fl f x) ->
  (forall x, x <> m -> (In x pd' <-> In x pd) /\ (In x pr' <-> In x pr) /\ (In x mk' <-> In x mk)) ->
  (forall y, Live f' pd' y <-> (y <> m /\ Live f pd y) \/ (y = m /\ In m pd' /\ (fl f' m = 0%N \/ fl f' m = 1%N))) /\
  (forall i, Dm f' pd' pr' i <-> (i <> wm_id m /\ Dm f pd pr i) \/
                                 (i = wm_id m /\ ((In m pd' /\ fl f' m = 1%N) \/ (In m pr' /\ (fl f' m = 3%N \/ fl f' m = 5%N))))) /\
  (Mk0 f pd mk -> (In m mk' -> fl f' m = 0%N -> In m pd') -> Mk0 f' pd' mk').
Proof.
  intros Hid Hf Hin.
  assert (Hne : forall y, y <> m -> In y pd' \/ In y pr' \/ In y mk' -> wm_id y <> wm_id m).
  { intros y Hy H E. apply Hy, Hid; [|exact E]. destruct (Hin y Hy) as (I1 & I2 & I3). rewrite !in_app_iff. tauto. }
  split; [|split].
  - intros y. unfold Live. destruct (wmsg_eq_dec y m) as [->|Hy]; [tauto|]. destruct (Hin y Hy) as (I1 & _). split.
    + intros [H1 H2]. left. rewrite (Hf y (Hne y Hy (or_introl H1))) in H2. tauto.
    + intros [[_ [H1 H2]]|[E _]]; [|contradiction]. apply I1 in H1. rewrite (Hf y (Hne y Hy (or_introl H1))). tauto.
  - intros i. unfold Dm. split.
    + intros (y & <- & H). destruct (wmsg_eq_dec y m) as [->|Hy]; [right; tauto|left]. destruct (Hin y Hy) as (I1 & I2 & _).
      assert (E := Hne y Hy ltac:(tauto)). split; [exact E|]. exists y. rewrite (Hf y E) in H. tauto.
    + intros [[Hi (y & <- & H)]|[-> H]]; [|exists m; tauto]. assert (Hy : y <> m) by congruence. destruct (Hin y Hy) as (I1 & I2 & _).
      exists y. rewrite (Hf y Hi). tauto.
  - intros M0 Hm o Ho Hfo. destruct (wmsg_eq_dec o m) as [->|Hy]; [exact (Hm Ho Hfo)|]. destruct (Hin o Hy) as (I1 & _ & I3).
    rewrite (Hf o (Hne o Hy ltac:(tauto))) in Hfo. apply I1, M0; [apply I3, Ho|exact Hfo].
Qed.

Lemma Dm_at g f pd pr mk nx m : Loc g f pd pr mk nx -> In m (pd ++ pr) ->
  (Dm f pd pr (wm_id m) <-> (In m pd /\ fl f m = 1%N) \/ (In m pr /\ (fl f m = 3%N \/ fl f m = 5%N))).
Proof.
  intros L Hm. split; [|intros H; exists m; split; [reflexivity|exact H]]. intros (y & E & H).
  assert (y = m); [|subst y; exact H]. apply (l_body _ _ _ _ _ _ L); [| |exact E]; rewrite !in_app_iff in *; tauto.
Qed.

(* process_msg takes the pending message m in hand and sets its flag word to v (2: it counts as processed, pr' = m :: pr;
   3: dropped; 5: its processed copy is being annihilated) *)
Lemma hand_sets g f m v pd pr mk nx pr' :
  Loc g f (m :: pd) pr mk nx -> Mk0 f (m :: pd) mk -> v <> 0%N -> (forall x, x <> m -> (In x pr' <-> In x pr)) ->
  let f' := flag_set f (wm_id m) v in
  (forall y, Live f' pd y <-> Live f (m :: pd) y /\ wm_id y <> wm_id m) /\
  (forall i, Dm f' pd pr' i <-> (Dm f (m :: pd) pr i /\ i <> wm_id m) \/ (i = wm_id m /\ In m pr' /\ (v = 3%N \/ v = 5%N))) /\
  Mk0 f' pd mk.
Proof.
  intros L M0 Hv Hpr f'.
  assert (Hid : forall x, In x ((m :: pd) ++ pr ++ mk) -> wm_id x = wm_id m -> x = m) by (apply (placed_id _ _ _ _ _ _ m L); left; reflexivity).
  destruct (nodup_cons_id m pd (l_nd_pd _ _ _ _ _ _ L)) as [Hnpd _].
  destruct (sets_move f f' m (m :: pd) pr mk pd pr' mk Hid (fun x => fl_set_other f _ v x)) as (SL & SD & SM).
  { intros x Hx. split; [cbn [In]; intuition congruence|split; [apply Hpr, Hx|reflexivity]]. }
  unfold f' in SL, SD, SM |- *. rewrite fl_set_same in SL, SD, SM. split; [|split].
  - intros y. rewrite SL. split.
    + intros [[Hy HL]|[_ [H _]]]; [|contradiction]. split; [exact HL|]. intros E. apply Hy, Hid; [|exact E]. apply in_or_app. left. exact (proj1 HL).
    + intros [HL Hne]. left. split; [|exact HL]. intros ->. apply Hne. reflexivity.
  - clear - SD Hnpd. intros i. rewrite SD. tauto.
  - apply (SM M0). intros _ E. contradiction.
Qed.

Lemma pend_set_flags w f : pend (set_flags w f) = pend w.
Proof. reflexivity. Qed.

(* send_anti_messages, one entry, by the flag word it finds (fetch-add of ANTI on a marker's message, fetch-sub of PROCESSED on a
   processed one; the message is queued iff the old word says it is not in the queue already) *)
Lemma undo_entry_flag w m : let f := k_flags w in
  (fl f m = 0%N -> undo_entry w (ESent m) = set_flags w (flag_set f (wm_id m) 1)) /\
  (fl f m = 2%N -> undo_entry w (ESent m) = wq_insert (set_flags w (flag_set f (wm_id m) 3)) m) /\
  (fl f m = 2%N -> undo_entry w (EProc m) = wq_insert (set_flags w (flag_set f (wm_id m) 0)) m) /\
  (fl f m = 3%N -> undo_entry w (EProc m) = set_flags w (flag_set f (wm_id m) 1)) /\
  (fl f m = 5%N -> undo_entry w (EProc m) = set_flags w (flag_set f (wm_id m) 3)).
Proof. unfold undo_entry, flag_add, flag_sub, fl. repeat split; intros H; rewrite H; reflexivity. Qed.

Lemma five_set f o v y : v <> 5%N -> (fl f y = 5%N -> wm_id y <> wm_id o) -> (fl (flag_set f (wm_id o) v) y = 5%N <-> fl f y = 5%N).
Proof.
  intros Hv H. rewrite fl_set. destruct (Pos.eqb_spec (wm_id y) (wm_id o)) as [E|E]; [|reflexivity].
  split; intros H5; [destruct (Hv H5)|destruct (H H5 E)].
Qed.

(* a marker un-done: its message is cancelled where it is (pending: flag 1; processed: flag 3 and its notice is queued) *)
Lemma unmark_sets g w o pr mk :
  Loc g (k_flags w) (pend w) pr (o :: mk) (k_next w) -> Mk0 (k_flags w) (pend w) (o :: mk) -> (g <= Z.of_N (tm o))%Z ->
  let w1 := undo_entry w (ESent o) in
  Loc g (k_flags w1) (pend w1) pr mk (k_next w) /\
  (forall y, Live (k_flags w1) (pend w1) y <-> Live (k_flags w) (pend w) y) /\
  (forall i, Dm (k_flags w1) (pend w1) pr i <-> Dm (k_flags w) (pend w) pr i \/ i = wm_id o) /\
  Mk0 (k_flags w1) (pend w1) mk /\
  (forall y, In y pr -> (fl (k_flags w1) y = 5%N <-> fl (k_flags w) y = 5%N) /\ (fl (k_flags w) y = 5%N -> wm_id y <> wm_id o)).
Proof.
  intros HL M0 Hge. pose proof (placed_id _ _ _ _ _ _ o HL ltac:(inapp)) as Hid. destruct (undo_entry_flag w o) as (U0 & U2 & _).
  assert (H5 : forall y, In y pr -> fl (k_flags w) y = 5%N -> wm_id y <> wm_id o).
  { intros y Hy F5 E. rewrite (Hid y ltac:(inapp) E) in F5. destruct (l_mk _ _ _ _ _ _ HL o (or_introl eq_refl)) as [H|[H _]]; rewrite F5 in H; discriminate. }
  cbn zeta. destruct (Loc_unmark _ _ _ _ _ _ _ HL Hge) as [[Hf HL1]|[Hf HL1]].
  - (* still pending *)
    rewrite (U0 Hf), pend_set_flags. cbn [set_flags k_flags]. assert (Hopd : In o (pend w)) by (apply M0; [left; reflexivity|exact Hf]).
    destruct (sets_move (k_flags w) _ o (pend w) pr (o :: mk) (pend w) pr mk Hid (fun x => fl_set_other _ _ 1 x)) as (SL & SD & SM).
    { intros x Hx. cbn [In]. intuition congruence. }
    rewrite fl_set_same in SL, SD, SM. split; [exact HL1|]. split; [|split; [|split]].
    + clear - SL Hopd Hf. intros y. rewrite SL. unfold Live. destruct (wmsg_eq_dec y o) as [->|Hy]; tauto.
    + clear - SD Hopd. intros i. rewrite SD. destruct (Pos.eq_dec i (wm_id o)) as [->|Hi]; tauto.
    + apply (SM M0). intros _ E. discriminate E.
    + intros y Hy. split; [apply five_set; [discriminate|]|]; apply H5, Hy.
  - (* already processed *)
    rewrite (U2 Hf), pend_insert, pend_set_flags. cbn [wq_insert set_flags k_flags].
    assert (Hopr : In o pr) by (destruct (l_mk _ _ _ _ _ _ HL o (or_introl eq_refl)) as [H|[_ [H|H]]]; [rewrite Hf in H; discriminate|exact H|lia]).
    assert (Hnpd : ~ In o (pend w)) by (intro H; destruct (l_pd _ _ _ _ _ _ HL o H) as [[H1 _]|[[H1|H1] _]]; rewrite Hf in H1; discriminate).
    destruct (sets_move (k_flags w) _ o (pend w) pr (o :: mk) (o :: pend w) pr mk Hid (fun x => fl_set_other _ _ 3 x)) as (SL & SD & SM).
    { intros x Hx. cbn [In]. intuition congruence. }
    rewrite fl_set_same in SL, SD, SM. split; [exact HL1|]. split; [|split; [|split]].
    + clear - SL Hf. intros y. rewrite SL. unfold Live. destruct (wmsg_eq_dec y o) as [->|Hy]; [rewrite Hf|tauto]. intuition discriminate.
    + clear - SD Hopr. intros i. rewrite SD. destruct (Pos.eq_dec i (wm_id o)) as [->|Hi]; tauto.
    + apply (SM M0). intros _ E. discriminate E.
    + intros y Hy. split; [apply five_set; [discriminate|]|]; apply H5, Hy.
Qed.

(* a processed message un-done: back into the pool (flag 2 -> 0), or, cancelled meanwhile, its queued notice becomes the pool's
   cancelled copy (3 -> 1), or, the one whose notice started this rollback, annihilated (5 -> 3, nowhere any more) *)
Lemma unproc_sets g w y0 pr mk :
  Loc g (k_flags w) (pend w) (y0 :: pr) mk (k_next w) -> Mk0 (k_flags w) (pend w) mk ->
  let w1 := undo_entry w (EProc y0) in
  Loc g (k_flags w1) (pend w1) pr mk (k_next w) /\
  (forall y, Live (k_flags w1) (pend w1) y <-> Live (k_flags w) (pend w) y \/ (y = y0 /\ fl (k_flags w) y0 <> 5%N)) /\
  (forall i, Dm (k_flags w1) (pend w1) pr i <-> Dm (k_flags w) (pend w) (y0 :: pr) i /\ (fl (k_flags w) y0 = 5%N -> i <> wm_id y0)) /\
  Mk0 (k_flags w1) (pend w1) mk /\ (forall y, In y pr -> fl (k_flags w1) y = fl (k_flags w) y).
Proof.
  intros HL M0. pose proof (placed_id _ _ _ _ _ _ y0 HL ltac:(inapp)) as Hid. destruct (undo_entry_flag w y0) as (_ & _ & U2 & U3 & U5).
  destruct (nodup_cons_id y0 pr (l_nd_pr _ _ _ _ _ _ HL)) as [Hnpr _].
  assert (Hoth : forall v y, In y pr -> fl (flag_set (k_flags w) (wm_id y0) v) y = fl (k_flags w) y).
  { intros v y Hy. apply fl_set_other, (nodup_cons_id' y0 pr y (l_nd_pr _ _ _ _ _ _ HL) Hy). }
  pose proof (Dm_at _ _ _ _ _ _ y0 HL ltac:(inapp)) as D0.
  assert (Hin : forall x, x <> y0 -> (In x (pend w) <-> In x (pend w)) /\ (In x pr <-> In x (y0 :: pr)) /\ (In x mk <-> In x mk)) by (intros x Hx; cbn [In]; intuition congruence).
  cbn zeta. destruct (Loc_unproc _ _ _ _ _ _ _ HL) as [[Hf HL1]|[[Hf HL1]|[Hf HL1]]]; rewrite Hf in D0 |- *.
  - rewrite (U2 Hf), pend_insert, pend_set_flags. cbn [wq_insert set_flags k_flags].
    assert (Hnpd : ~ In y0 (pend w)) by (intro H; destruct (l_pd _ _ _ _ _ _ HL y0 H) as [[H1 _]|[[H1|H1] _]]; rewrite Hf in H1; discriminate).
    destruct (sets_move (k_flags w) _ y0 (pend w) (y0 :: pr) mk (y0 :: pend w) pr mk Hid (fun x => fl_set_other _ _ 0 x)) as (SL & SD & SM).
    { intros x Hx. cbn [In]. intuition congruence. }
    rewrite fl_set_same in SL, SD, SM. split; [exact HL1|]. split; [|split; [|split; [|apply Hoth]]].
    + clear - SL Hf. intros y. rewrite SL. unfold Live. cbn [In]. destruct (wmsg_eq_dec y y0) as [->|Hy]; [rewrite Hf|]; intuition (congruence || discriminate).
    + clear - SD D0. intros i. rewrite SD. destruct (Pos.eq_dec i (wm_id y0)) as [->|Hi]; [rewrite D0|]; intuition discriminate.
    + apply (SM M0). intros _ _. left. reflexivity.
  - rewrite (U3 Hf), pend_set_flags. cbn [set_flags k_flags].
    assert (Hpd : In y0 (pend w)) by (destruct (l_pr _ _ _ _ _ _ HL y0 (or_introl eq_refl)) as [[_ H]|[[H _]|[H _]]]; [exact H|rewrite Hf in H; discriminate..]).
    destruct (sets_move (k_flags w) _ y0 (pend w) (y0 :: pr) mk (pend w) pr mk Hid (fun x => fl_set_other _ _ 1 x) Hin) as (SL & SD & SM).
    rewrite fl_set_same in SL, SD, SM. split; [exact HL1|]. split; [|split; [|split; [|apply Hoth]]].
    + clear - SL Hf Hpd. intros y. rewrite SL. unfold Live. destruct (wmsg_eq_dec y y0) as [->|Hy]; [rewrite Hf|]; intuition (congruence || discriminate).
    + clear - SD D0 Hpd. intros i. rewrite SD. destruct (Pos.eq_dec i (wm_id y0)) as [->|Hi]; [rewrite D0; cbn [In]|]; intuition discriminate.
    + apply (SM M0). intros _ E. discriminate E.
  - rewrite (U5 Hf), pend_set_flags. cbn [set_flags k_flags].
    assert (Hnpd : ~ In y0 (pend w)) by (intro H; destruct (l_pd _ _ _ _ _ _ HL y0 H) as [[H1 _]|[[H1|H1] _]]; rewrite Hf in H1; discriminate).
    destruct (sets_move (k_flags w) _ y0 (pend w) (y0 :: pr) mk (pend w) pr mk Hid (fun x => fl_set_other _ _ 3 x) Hin) as (SL & SD & SM).
    rewrite fl_set_same in SL, SD, SM. split; [exact HL1|]. split; [|split; [|split; [|apply Hoth]]].
    + clear - SL Hf. intros y. rewrite SL. unfold Live. destruct (wmsg_eq_dec y y0) as [->|Hy]; [rewrite Hf|]; intuition (congruence || discriminate).
    + clear - SD Hnpr. intros i. rewrite SD. destruct (Pos.eq_dec i (wm_id y0)) as [->|Hi]; intuition discriminate.
    + apply (SM M0). intros _ E. discriminate E.
Qed.

(* send_anti_messages over a list of entries; a processed message with flag word 5 among them is annihilated *)
Lemma undo_all_sets g es : forall w pr mk,
  Loc g (k_flags w) (pend w) (procs_of es ++ pr) (marks_of es ++ mk) (k_next w) ->
  Mk0 (k_flags w) (pend w) (marks_of es ++ mk) ->
  (forall o, In (ESent o) es -> (g <= Z.of_N (tm o))%Z) ->
  let w' := fold_left undo_entry es w in
  Loc g (k_flags w') (pend w') pr mk (k_next w) /\
  (forall y, Live (k_flags w') (pend w') y <-> Live (k_flags w) (pend w) y \/ (In y (procs_of es) /\ fl (k_flags w) y <> 5%N)) /\
  (forall i, Dm (k_flags w') (pend w') pr i <->
     (Dm (k_flags w) (pend w) (procs_of es ++ pr) i /\ (forall y, In y (procs_of es) -> fl (k_flags w) y = 5%N -> i <> wm_id y)) \/ In i (map wm_id (marks_of es))) /\
  Mk0 (k_flags w') (pend w') mk /\ (forall y, In y pr -> (fl (k_flags w') y = 5%N <-> fl (k_flags w) y = 5%N)).
Proof.
  induction es as [|e es IH]; intros w pr mk HL M0 Hge; cbn [fold_left].
  - cbn [procs_of marks_of flat_map app map In] in *. split; [exact HL|]. split; [intros y; tauto|]. split; [intros i; tauto|]. split; [exact M0|]. intros y _. reflexivity.
  - assert (Hge' : forall o, In (ESent o) es -> (g <= Z.of_N (tm o))%Z) by (intros o Ho; apply Hge; right; exact Ho).
    rewrite <- (undo_entry_next w e). destruct e as [o|y0].
    + change (marks_of (ESent o :: es) ++ mk) with (o :: marks_of es ++ mk) in HL, M0. change (procs_of (ESent o :: es)) with (procs_of es) in *.
      destruct (unmark_sets g w o _ _ HL M0 (Hge o (or_introl eq_refl))) as (L1 & SL & SD & M1 & F1). cbn zeta in *.
      rewrite <- (undo_entry_next w (ESent o)) in L1.
      destruct (IH _ pr mk L1 M1 Hge') as (I1 & I2 & I3 & I4 & I5). split; [exact I1|]. split; [|split; [|split; [exact I4|]]].
      * intros y. rewrite I2, SL. apply or_iff_compat_l. split; intros [Hy H5]; (split; [exact Hy|]); intros F5; apply H5, (F1 y (in_or_app _ _ _ (or_introl Hy))), F5.
      * intros i. rewrite I3, SD. cbn [marks_of flat_map app map In].
        assert (HC : (forall y, In y (procs_of es) -> fl (k_flags (undo_entry w (ESent o))) y = 5%N -> i <> wm_id y) <->
                     (forall y, In y (procs_of es) -> fl (k_flags w) y = 5%N -> i <> wm_id y)).
        { split; intros H y Hy F5; apply (H y Hy), (F1 y (in_or_app _ _ _ (or_introl Hy))), F5. }
        rewrite HC. split; [intros [[[H| ->] C]|H]; tauto|]. intros [[H C]|[<-|H]]; [tauto| |tauto]. left. split; [right; reflexivity|].
        intros y Hy F5 E. exact (proj2 (F1 y (in_or_app _ _ _ (or_introl Hy))) F5 (eq_sym E)).
      * intros y Hy. rewrite I5 by exact Hy. apply (F1 y), in_or_app. right. exact Hy.
    + change (procs_of (EProc y0 :: es) ++ pr) with (y0 :: procs_of es ++ pr) in HL. change (marks_of (EProc y0 :: es)) with (marks_of es) in *.
      destruct (unproc_sets g w y0 _ _ HL M0) as (L1 & SL & SD & M1 & F1). cbn zeta in *.
      rewrite <- (undo_entry_next w (EProc y0)) in L1.
      destruct (IH _ pr mk L1 M1 Hge') as (I1 & I2 & I3 & I4 & I5). split; [exact I1|]. split; [|split; [|split; [exact I4|]]].
      * intros y. rewrite I2, SL. change (procs_of (EProc y0 :: es)) with (y0 :: procs_of es). cbn [In]. split.
        -- intros [[H|[-> H]]|[Hy H]]; [tauto|tauto|]. rewrite (F1 y (in_or_app _ _ _ (or_introl Hy))) in H. tauto.
        -- intros [H|[[<-|Hy] H]]; [tauto|tauto|]. right. rewrite (F1 y (in_or_app _ _ _ (or_introl Hy))). tauto.
      * intros i. rewrite I3, SD. change (procs_of (EProc y0 :: es)) with (y0 :: procs_of es). apply or_iff_compat_r. split.
        -- intros [[H C0] C]. split; [exact H|]. intros y [<-|Hy] F5; [exact (C0 F5)|]. apply (C y Hy). rewrite (F1 y (in_or_app _ _ _ (or_introl Hy))). exact F5.
        -- intros [H C]. split; [split; [exact H|apply (C y0), or_introl, eq_refl]|]. intros y Hy F5. apply (C y (or_intror Hy)). rewrite <- (F1 y (in_or_app _ _ _ (or_introl Hy))). exact F5.
      * intros y Hy. rewrite I5 by exact Hy. rewrite (F1 y (in_or_app _ _ _ (or_intror Hy))). reflexivity.
Qed.

Fixpoint mknews (k : positive) (outs : list event) : list wmsg :=
  match outs with [] => [] | e :: r => mkWm k e :: mknews (Pos.succ k) r end.
Fixpoint psucc_n (n : nat) (k : positive) : positive := match n with O => k | S j => psucc_n j (Pos.succ k) end.

Lemma mknews_news k outs : mknews k outs = news_from k outs.
Proof. revert k. induction outs as [|e r IH]; intros k; cbn; [reflexivity|]. rewrite IH. reflexivity. Qed.
Lemma psucc_n_news k outs : fold_left (fun k _ => Pos.succ k) (news_from k outs) k = psucc_n (length outs) k.
Proof. revert k. induction outs as [|e r IH]; intros k; cbn; [reflexivity|apply IH]. Qed.

Lemma send_all_mk outs : forall w acc,
  snd (send_all w outs acc) = rev acc ++ map ESent (mknews (k_next w) outs) /\
  k_next (fst (send_all w outs acc)) = psucc_n (length outs) (k_next w).
Proof. intros w acc. rewrite send_all_eq, (mknews_news (k_next w) outs). split; [reflexivity|apply (psucc_n_news (k_next w) outs)]. Qed.

Section Handler.
Variable p : prog.

Lemma replay_flat gs : forall st, replay p st (flat gs) = fold_left (fun s g => fst (handle p (wm_ev (snd g)) s)) gs st.
Proof.
  induction gs as [|g gs IH]; intros st; [reflexivity|]. unfold flat. cbn [flat_map]. fold (flat gs).
  rewrite replay_app. unfold flat1. rewrite replay_app.
  assert (Hs : all_sent (map ESent (fst g))) by (apply Forall_forall; intros e He; apply in_map_iff in He; destruct He as (z & <- & _); reflexivity).
  rewrite (replay_sent p st _ Hs). cbn [fold_left]. unfold replay at 2. cbn [fold_left]. apply IH.
Qed.

Lemma ahandle_eq l s ev : (l < nlps p)%nat -> e_dest ev = N.of_nat l ->
  ahandle p l s (cont_of ev) = (fst (handle p ev s), map pay_of (snd (handle p ev s))).
Proof.
  intros Hl Hd. unfold ahandle. destruct (Nat.ltb_spec l (nlps p)); [|lia].
  assert (E : ev_of l (cont_of ev) = ev) by (destruct ev as [d t y pl]; unfold ev_of, cont_of, c_t, c_type, c_pl; cbn in *; rewrite Hd; reflexivity).
  rewrite E. destruct (handle p ev s); reflexivity.
Qed.

Lemma stof_flat l gs : (l < nlps p)%nat -> (forall g, In g gs -> e_dest (wm_ev (snd g)) = N.of_nat l) -> forall st,
  fold_left (fun s e => fst (ahandle p l s (Abs.mc cont (Abs.em cont e)))) (map ent gs) st =
  fold_left (fun s g => fst (handle p (wm_ev (snd g)) s)) gs st.
Proof.
  intros Hl. induction gs as [|g gs IH]; intros Hd st; [reflexivity|]. cbn [map fold_left].
  unfold ent at 2. cbn [Abs.em Abs.mc amsg]. rewrite (ahandle_eq l st (wm_ev (snd g)) Hl (Hd g (or_introl eq_refl))). cbn [fst].
  apply IH. intros g' Hg'. apply Hd. right. exact Hg'.
Qed.
End Handler.

Lemma flat_length_pos g gs : 0 < length (flat (g :: gs)).
Proof. unfold flat. cbn [flat_map]. unfold flat1. rewrite !app_length. cbn. lia. Qed.

(* the abstract machine cuts a history where the worker does: behind the released groups and the retained ones that stay *)
Lemma keep_undo_ghosts (a : Abs.abs cont) f s gdone gk gu :
  (forall g, In g gdone -> Abs.dbefore cont cltb tltb a (amsg s) (ent g) = false) ->
  (forall g, In g (gk ++ gu) -> Abs.dbefore cont cltb tltb a (amsg s) (ent g) = wbefore f s (snd g)) ->
  (forall g, In g gu -> wbefore f s (snd g) = true) ->
  (gk = [] \/ exists gk' g, gk = gk' ++ [g] /\ wbefore f s (snd g) = false) ->
  Abs.keep_of (Abs.dbefore cont cltb tltb a (amsg s)) (map ent (gdone ++ gk ++ gu)) = map ent (gdone ++ gk) /\
  Abs.undo_of (Abs.dbefore cont cltb tltb a (amsg s)) (map ent (gdone ++ gk ++ gu)) = map ent gu.
Proof.
  intros Hg Hd Hu Hk. rewrite (app_assoc gdone gk gu), (map_app ent (gdone ++ gk) gu). apply keep_of_unique.
  - intros e He. apply in_map_iff in He. destruct He as (g & <- & Hgg). rewrite Hd by (apply in_or_app; right; exact Hgg). apply Hu, Hgg.
  - destruct Hk as [->|(gk' & g & -> & Hgf)].
    + rewrite app_nil_r. destruct gdone as [|gl gd0] using rev_ind; [left; reflexivity|right]. exists (map ent gd0), (ent gl). rewrite map_app.
      split; [reflexivity|]. apply Hg, in_or_app. right. left. reflexivity.
    + right. exists (map ent (gdone ++ gk')), (ent g). rewrite app_assoc, map_app. split; [reflexivity|].
      rewrite Hd by (apply in_or_app; left; apply in_or_app; right; left; reflexivity). exact Hgf.
Qed.
Lemma keep_undo_groups (a : Abs.abs cont) f s gk gu :
  (forall g, In g (gk ++ gu) -> Abs.dbefore cont cltb tltb a (amsg s) (ent g) = wbefore f s (snd g)) ->
  (forall g, In g gu -> wbefore f s (snd g) = true) ->
  (gk = [] \/ exists gk' g, gk = gk' ++ [g] /\ wbefore f s (snd g) = false) ->
  Abs.keep_of (Abs.dbefore cont cltb tltb a (amsg s)) (map ent (gk ++ gu)) = map ent gk /\
  Abs.undo_of (Abs.dbefore cont cltb tltb a (amsg s)) (map ent (gk ++ gu)) = map ent gu.
Proof. exact (keep_undo_ghosts a f s [] gk gu (fun g F => match F with end)). Qed.

(* the clauses r_pool and r_antis of R are [img amsg pool Live] and [img Pos.to_nat antis Dm] written out *)
Definition img {A B} (f : A -> B) (l : list B) (S : A -> Prop) : Prop := forall x, In x l <-> exists y, S y /\ x = f y.

Lemma img_ext {A B} (f : A -> B) l (S S' : A -> Prop) : img f l S -> (forall y, S' y <-> S y) -> img f l S'.
Proof. intros H E x. rewrite (H x). split; intros (y & Hy & ->); exists y; (split; [apply E, Hy|reflexivity]). Qed.
Lemma img_app {A B} (f : A -> B) l l' (S S' : A -> Prop) : img f l S -> img f l' S' -> img f (l ++ l') (fun y => S y \/ S' y).
Proof.
  intros H H' x. rewrite in_app_iff, (H x), (H' x). split.
  - intros [(y & Hy & E)|(y & Hy & E)]; exists y; tauto.
  - intros (y & [Hy|Hy] & E); [left|right]; exists y; tauto.
Qed.
Lemma img_map {A B} (f : A -> B) l : img f (map f l) (fun y => In y l).
Proof. intros x. rewrite in_map_iff. split; intros (y & H1 & H2); exists y; auto. Qed.

Lemma remove1_in_iff (l : list (Abs.msg cont)) i x : NoDup (map (Abs.mid cont) l) ->
  (In x (Abs.remove1 cont i l) <-> In x l /\ Abs.mid cont x <> i).
Proof.
  induction l as [|h t IH]; intros Hnd; cbn [Abs.remove1 In]; [tauto|]. cbn [map] in Hnd. inversion Hnd as [|? ? Hh Ht]; subst.
  destruct (Nat.eqb_spec (Abs.mid cont h) i) as [E|E].
  - split; [intros Hx; split; [right; exact Hx|]|intros [[<-|Hx] Hne]; [contradiction|exact Hx]].
    intro Ex. apply Hh. rewrite E, <- Ex. apply in_map. exact Hx.
  - cbn [In]. rewrite (IH Ht). split; [intros [<-|[Hx Hne]]; [split; [left; reflexivity|exact E]|split; [right; exact Hx|exact Hne]]|].
    intros [[<-|Hx] Hne]; [left; reflexivity|right; split; assumption].
Qed.
Lemma remove_id_in_iff (l : list nat) i x : NoDup l -> (In x (Abs.remove_id i l) <-> In x l /\ x <> i).
Proof.
  induction l as [|h t IH]; intros Hnd; cbn [Abs.remove_id In]; [tauto|]. inversion Hnd as [|? ? Hh Ht]; subst.
  destruct (Nat.eqb_spec h i) as [E|E].
  - subst h. split; [intros Hx; split; [right; exact Hx|intros ->; contradiction]|intros [[<-|Hx] Hne]; [contradiction|exact Hx]].
  - cbn [In]. rewrite (IH Ht). split; [intros [<-|[Hx Hne]]; [split; [left; reflexivity|exact E]|split; [right; exact Hx|exact Hne]]|].
    intros [[<-|Hx] Hne]; [left; reflexivity|right; split; assumption].
Qed.

Lemma img_remove1 m pool (S : wmsg -> Prop) : NoDup (map (Abs.mid cont) pool) -> img amsg pool S ->
  img amsg (Abs.remove1 cont (Abs.mid cont (amsg m)) pool) (fun y => S y /\ wm_id y <> wm_id m).
Proof.
  intros Hnd H x. rewrite (remove1_in_iff _ _ _ Hnd), (H x). cbn [amsg Abs.mid]. split.
  - intros [(y & Hy & ->) Hne]. exists y. split; [split; [exact Hy|]|reflexivity]. intros E. apply Hne. cbn [amsg Abs.mid]. rewrite E. reflexivity.
  - intros (y & [Hy Hne] & ->). split; [exists y; split; [exact Hy|reflexivity]|]. cbn [amsg Abs.mid]. intros E. apply Hne, Pos2Nat.inj, E.
Qed.
Lemma img_remove_id i antis (D : positive -> Prop) : NoDup antis -> img Pos.to_nat antis D ->
  img Pos.to_nat (Abs.remove_id (Pos.to_nat i) antis) (fun j => D j /\ j <> i).
Proof.
  intros Hnd H x. rewrite (remove_id_in_iff _ _ _ Hnd), (H x). split.
  - intros [(j & Hj & ->) Hne]. exists j. split; [split; [exact Hj|]|reflexivity]. intros ->. apply Hne. reflexivity.
  - intros (j & [Hj Hne] & ->). split; [exists j; split; [exact Hj|reflexivity]|]. intros E. apply Hne, Pos2Nat.inj, E.
Qed.

Lemma eouts_ent gu : flat_map (Abs.eouts cont) (map ent gu) = map amsg (flat_map fst gu).
Proof. induction gu as [|g gu IH]; [reflexivity|]. cbn [map flat_map]. rewrite map_app, IH. reflexivity. Qed.
Lemma ems_ent gu : map (Abs.em cont) (map ent gu) = map amsg (map snd gu).
Proof. rewrite !map_map. reflexivity. Qed.
Lemma ids_ent gu : Abs.ids_of cont (map ent gu) = map Pos.to_nat (map wm_id (flat_map fst gu)).
Proof. unfold Abs.ids_of. rewrite eouts_ent, !map_map. reflexivity. Qed.

Lemma remove_id_sub i l x : In x (Abs.remove_id i l) -> In x l.
Proof. induction l as [|h t IH]; cbn [Abs.remove_id]; [tauto|]. destruct (Nat.eqb h i); [intros H; right; exact H|intros [H|H]; [left; exact H|right; apply IH; exact H]]. Qed.
Lemma nodup_map_inj {A B} (f : A -> B) (l : list A) x y : NoDup (map f l) -> In x l -> In y l -> f x = f y -> x = y.
Proof.
  induction l as [|h t IH]; intros Hnd Hx Hy E; [destruct Hx|]. cbn [map] in Hnd. inversion Hnd as [|? ? Hh Ht]; subst.
  destruct Hx as [<-|Hx], Hy as [<-|Hy]; [reflexivity| | |apply IH; assumption].
  - exfalso. apply Hh. rewrite E. apply in_map. exact Hy.
  - exfalso. apply Hh. rewrite <- E. apply in_map. exact Hx.
Qed.
Lemma news_flags news y : forall f, (forall z, In z news -> wm_id z <> wm_id y) -> fl (fold_left (fun f m => flag_set f (wm_id m) 0) news f) y = fl f y.
Proof.
  induction news as [|z r IH]; intros f H; [reflexivity|]. cbn [fold_left].
  rewrite IH by (intros z' Hz'; apply H; right; exact Hz'). apply fl_set_other. intro E. exact (H z (or_introl eq_refl) (eq_sym E)).
Qed.
Lemma news_flags_new outs y : forall f k, In y (news_from k outs) -> fl (fold_left (fun f m => flag_set f (wm_id m) 0) (news_from k outs) f) y = 0%N.
Proof.
  induction outs as [|e r IH]; intros f k H; [destruct H|]. cbn [news_from fold_left] in *. destruct H as [<-|H]; [|apply IH, H].
  rewrite news_flags; [apply (fl_set_same f (mkWm k e) 0)|].
  intros z Hz E. apply news_ids_ge in Hz. rewrite E in Hz. exact (Pos.lt_irrefl _ (Pos.lt_le_trans _ _ _ (Pos.lt_succ_diag_r k) Hz)).
Qed.
Lemma cltb_time_false c1 c2 : (c_t c2 < c_t c1)%N -> cltb c1 c2 = false.
Proof.
  intros H. destruct (cltb c1 c2) eqn:E; [|reflexivity]. exfalso. apply (clt_not_tlt c1 c2 E). unfold Abs.tlt, tltb. apply N.ltb_lt. exact H.
Qed.

Section Sim.
Variable p : prog.
Variable ck : nat.
Hypothesis Hvalid : prog_valid p = true.
Hypothesis Htypes : types_okb p = true.

Definition init0 : list (Abs.msg cont) := map amsg (pend (w_init p)).
Definition N0 : nat := Pos.to_nat (k_next (w_init p)).
Notation n := (nlps p).
Notation areach := (Bridge.reach cont cltb tltb lpstate n (AppAbs.s0 p) (ahandle p) init0 N0).
Notation astep := (Abs.step cont cltb tltb lpstate n (AppAbs.s0 p) (ahandle p)).
Notation aInv := (Abs.Inv cont n init0).
Definition is_init (m : wmsg) : Prop := e_type (wm_ev m) = LP_INIT_TYPE.

Definition stofg (l : nat) (gs : list group) : lpstate := Abs.stof cont lpstate (AppAbs.s0 p) (ahandle p) l (map ent gs).

(* [g0]: the LP_INIT group while it is retained ([] after the first fossil collection); [gdone]: the groups fossil collection has
   released so far (ghost: they only exist on the abstract side); [gs]: the retained groups *)
Record R (w : worker) (a : Abs.abs cont) : Prop := {
  r_full : full p w;
  r_len : length (k_lps w) = n;
  r_mk0 : Mk0 (k_flags w) (pend w) (allmarks (k_lps w));
  r_no5 : No5 (k_flags w) (allprocs (k_lps w));
  r_reach : areach a;
  r_hist : forall l, l < n -> exists g0 gdone gs : list group, x_hist (get_lp w l) = flat (g0 ++ gs) /\
             base (get_lp w l) = (length (flat g0), stofg l gdone) /\ Abs.hist cont a l = map ent (gdone ++ gs) /\
             (forall g, In g gdone -> (Z.of_N (tm (snd g)) < k_gvt w)%Z /\ Abs.doomedb cont a (amsg (snd g)) = false) /\
             ((exists ms im, g0 = [(ms, im)] /\ is_init im /\ gdone = []) \/ g0 = []);
  r_pool : forall x, In x (Abs.pool cont a) <-> exists y, Live (k_flags w) (pend w) y /\ x = amsg y;
  r_antis : forall i, In i (Abs.antis cont a) <-> exists j, Dm (k_flags w) (pend w) (allprocs (k_lps w)) j /\ i = Pos.to_nat j;
  r_nid : Abs.nid cont a = Pos.to_nat (k_next w)
}.

Lemma shape_g0 (g0 gdone : list group) : ((exists ms im, g0 = [(ms, im)] /\ is_init im /\ gdone = []) \/ g0 = []) -> g0 = [] \/ exists ms im, g0 = [(ms, im)].
Proof. intros [(ms & im & E & _)|E]; [right; exists ms, im; exact E|left; exact E]. Qed.

Lemma once_loc w : full p w -> Loc (k_gvt w) (k_flags w) (pend w) (allprocs (k_lps w)) (allmarks (k_lps w)) (k_next w).
Proof. intros F. exact (f_once p w F). Qed.

Lemma doomed_iff w a y : R w a -> In y (allprocs (k_lps w)) -> (Abs.doomedb cont a (amsg y) = true <-> fl (k_flags w) y = 3%N).
Proof.
  intros Hr Hy. pose proof (once_loc w (r_full _ _ Hr)) as L.
  rewrite (Abs.doomedb_true cont). rewrite (r_antis _ _ Hr). split.
  - intros (j & (y' & Ey & H) & Ej). cbn [amsg Abs.mid] in Ej. apply Pos2Nat.inj in Ej. rewrite <- Ej in Ey.
    assert (Efl : fl (k_flags w) y' = fl (k_flags w) y) by (unfold fl; rewrite Ey; reflexivity).
    destruct (l_pr _ _ _ _ _ _ L y Hy) as [[H1 _]|[[H1 _]|[H1 _]]]; [exact H1| |exfalso; apply (r_no5 _ _ Hr y Hy); exact H1].
    destruct H as [[_ H]|[_ [H|H]]]; rewrite Efl, H1 in H; discriminate.
  - intros Hf. exists (wm_id y). split; [|reflexivity]. exists y. split; [reflexivity|right]. split; [exact Hy|left; exact Hf].
Qed.

Lemma dbefore_wbefore w a s y f : R w a -> In y (allprocs (k_lps w)) -> (forall z, wm_id z <> wm_id s -> fl f z = fl (k_flags w) z) -> wm_id y <> wm_id s ->
  fl f s = 2%N -> Abs.dbefore cont cltb tltb a (amsg s) (ent ([], y)) = wbefore f s y.
Proof.
  intros Hr Hy Hf Hne Hs. pose proof (once_loc w (r_full _ _ Hr)) as L.
  unfold Abs.dbefore. cbn [ent Abs.em snd amsg Abs.mc].
  assert (Es : Z.land (Z.of_N (fl f s)) 1 = 0%Z) by (rewrite Hs; reflexivity).
  destruct (Abs.doomedb cont a (amsg y)) eqn:Ed.
  - apply (doomed_iff w a y Hr Hy) in Ed. symmetry. apply wbefore_doomed; [exact Es|]. rewrite (Hf y Hne), Ed. reflexivity.
  - assert (H2 : fl (k_flags w) y = 2%N).
    { destruct (l_pr _ _ _ _ _ _ L y Hy) as [[H1 _]|[[H1 _]|[H1 _]]]; [|exact H1|exfalso; apply (r_no5 _ _ Hr y Hy); exact H1].
      apply (doomed_iff w a y Hr Hy) in H1. congruence. }
    symmetry. apply wbefore_valid; [exact Es|]. rewrite (Hf y Hne), H2. reflexivity.
Qed.

Lemma R_moved w w' a : R w a -> full p w' -> moved w w' -> R w' a.
Proof.
  intros [F Hl M0 N5 Hre Hh Hp Ha Hn] F' (P & (El & _ & Eg & _) & Ef & En).
  constructor; try assumption.
  - rewrite El. exact Hl.
  - rewrite Ef, El. intros o Ho Hf. apply (Permutation_in _ P). apply M0; assumption.
  - rewrite Ef, El. exact N5.
  - intros l Hlt. unfold get_lp. rewrite El, Eg. apply Hh. exact Hlt.
  - intros x. rewrite Hp, Ef. split; intros (y & Hy & E); exists y; (split; [|exact E]); [apply (Live_perm _ _ _ _ P)|apply (Live_perm _ _ _ _ P)]; exact Hy.
  - intros i. rewrite Ha, Ef, El. split; intros (j & Hj & E); exists j; (split; [|exact E]); [apply (Dm_perm _ _ _ _ _ P)|apply (Dm_perm _ _ _ _ _ P)]; exact Hj.
  - rewrite En. exact Hn.
Qed.

Lemma hold_epoch k : forall w, k_epoch (hold k w) = k_epoch w.
Proof.
  induction k as [|k IH]; intros w; cbn [hold]; [reflexivity|]. destruct (extract_same w) as ((_ & _ & _ & _ & Ee) & _).
  destruct (wq_extract w) as [[m|] w1]; cbn [snd] in Ee; [rewrite IH|]; exact Ee.
Qed.
Lemma unhold_epoch i w : k_epoch (unhold i w) = k_epoch w.
Proof. unfold unhold. destruct (k_held w); [reflexivity|]. destruct (nth _ _ _); reflexivity. Qed.
Lemma unhold_all_epoch w : k_epoch (unhold_all w) = k_epoch w.
Proof. apply (unhold_all_fold (k_held w) w). Qed.

Notation full_init := (app_init_full p Htypes).

Lemma n_eq : n = N.to_nat (p_lps p).
Proof. reflexivity. Qed.

Lemma init0_nodup : NoDup (map (Abs.mid cont) init0).
Proof.
  unfold init0. rewrite map_map. cbn [amsg Abs.mid].
  pose proof (l_nd_pd _ _ _ _ _ _ (f_once p _ full_init)) as Hnd.
  rewrite <- (map_map wm_id Pos.to_nat). apply FinFun.Injective_map_NoDup; [intros x y; apply Pos2Nat.inj|exact Hnd].
Qed.
Lemma init0_lt m : In m init0 -> Abs.mid cont m < N0.
Proof.
  unfold init0, N0. intros H. apply in_map_iff in H. destruct H as (y & <- & Hy). cbn [amsg Abs.mid].
  pose proof (l_lt _ _ _ _ _ _ (f_once p _ full_init) y ltac:(apply in_or_app; left; exact Hy)) as Hlt. apply Pos2Nat.inj_lt. exact Hlt.
Qed.
Lemma reach_Inv a : areach a -> aInv a.
Proof.
  intros Hr. exact (proj1 (Bridge.reach_inv cont cltb clt_trans clt_total tltb tlt_clt tlt_negtrans lpstate n (AppAbs.s0 p) (ahandle p) init0
                            init0_nodup N0 init0_lt a Hr)).
Qed.
Lemma pool_nodup a : aInv a -> NoDup (map (Abs.mid cont) (Abs.pool cont a)).
Proof. intros I. pose proof (Abs.i_nd_placed cont n init0 a I) as H. unfold Abs.placed in H. rewrite map_app in H. apply (Abs.nodup_app_l _ _ H). Qed.

Lemma fix_bound_epoch x : x_epoch (fix_bound x) = x_epoch x.
Proof. unfold fix_bound. destruct (x_hist x); reflexivity. Qed.
Lemma fix_bound_base x : base (fix_bound x) = base x.
Proof. unfold base. rewrite fix_bound_logs. reflexivity. Qed.

(* identities of placed messages are unique *)
Lemma ghost_not_marked a i gy l' (hl : list (Abs.entry cont)) o : aInv a -> i < n -> l' < n -> In (ent gy) (Abs.hist cont a i) ->
  (forall e, In e hl -> In e (Abs.hist cont a l')) -> In (amsg o) (flat_map (Abs.eouts cont) hl) ->
  Abs.mid cont (amsg (snd gy)) = Abs.mid cont (amsg o) -> snd gy = o.
Proof.
  intros I Hi Hl' Hy Hsub Ho E. apply amsg_inj.
  apply (nodup_map_inj (Abs.mid cont) (Abs.placed cont n a) _ _ (Abs.i_nd_placed cont n init0 a I)); [| |exact E].
  - unfold Abs.placed, Abs.hist_msgs. apply in_or_app. right. apply in_flat_map. exists i. split; [apply in_seq; lia|].
    apply in_map_iff. exists (ent gy). split; [reflexivity|exact Hy].
  - apply (Abs.i_sent_placed cont n init0 a I). unfold Abs.sent. apply in_or_app. right. apply in_flat_map. exists l'. split; [apply in_seq; lia|].
    apply in_flat_map in Ho. destruct Ho as (e & He & Ho). apply in_flat_map. exists e. split; [apply Hsub; exact He|exact Ho].
Qed.

(* a released group stays uncancelled when the identities newly cancelled are those of markers of groups [hl] of one LP, all at or above the GVT *)
Lemma ghost_kept a (a' : Abs.abs cont) l (hl : list group) (gv : Z) i gi : aInv a -> i < n -> l < n ->
  In (ent gi) (Abs.hist cont a i) -> (forall g, In g hl -> In (ent g) (Abs.hist cont a l)) ->
  (forall o, In o (flat_map fst hl) -> (gv <= Z.of_N (tm o))%Z) -> (Z.of_N (tm (snd gi)) < gv)%Z ->
  (forall j, In j (Abs.antis cont a') -> In j (Abs.antis cont a) \/ In j (Abs.ids_of cont (map ent hl))) ->
  Abs.doomedb cont a (amsg (snd gi)) = false -> Abs.doomedb cont a' (amsg (snd gi)) = false.
Proof.
  intros I Hi Hl Hin Hsub Hmt Ht Han Hd. apply (Abs.doomedb_false cont). intros Ed. destruct (Han _ Ed) as [Ed'|Ed'].
  - apply (Abs.doomedb_false cont) in Hd. exact (Hd Ed').
  - unfold Abs.ids_of in Ed'. rewrite eouts_ent in Ed'. apply in_map_iff in Ed'. destruct Ed' as (x & Ex & Hx).
    apply in_map_iff in Hx. destruct Hx as (o & <- & Ho).
    assert (E : snd gi = o).
    { apply (ghost_not_marked a i gi l (map ent hl) o I Hi Hl Hin); [|rewrite eouts_ent; apply in_map, Ho|symmetry; exact Ex].
      intros e He. apply in_map_iff in He. destruct He as (g & <- & Hg). apply Hsub, Hg. }
    subst o. specialize (Hmt _ Ho). lia.
Qed.

(* the histories after a step that touches LP l alone: its retained groups become [gs'], everything released stays uncancelled *)
Lemma hist_step w a w' (a' : Abs.abs cont) l g0 gdone gs gs' hl :
  R w a -> l < n -> Abs.hist cont a l = map ent (gdone ++ gs) ->
  (forall g, In g gdone -> (Z.of_N (tm (snd g)) < k_gvt w)%Z /\ Abs.doomedb cont a (amsg (snd g)) = false) ->
  ((exists ms im, g0 = [(ms, im)] /\ is_init im /\ gdone = []) \/ g0 = []) ->
  x_hist (get_lp w' l) = flat (g0 ++ gs') -> base (get_lp w' l) = (length (flat g0), stofg l gdone) ->
  (forall i, i <> l -> get_lp w' i = get_lp w i) -> k_gvt w' = k_gvt w ->
  Abs.hist cont a' l = map ent (gdone ++ gs') -> (forall i, i <> l -> Abs.hist cont a' i = Abs.hist cont a i) ->
  (forall g, In g hl -> In g gs) -> (forall o, In o (flat_map fst hl) -> (k_gvt w <= Z.of_N (tm o))%Z) ->
  (forall j, In j (Abs.antis cont a') -> In j (Abs.antis cont a) \/ In j (Abs.ids_of cont (map ent hl))) ->
  forall i, i < n -> exists g0 gdone gs : list group, x_hist (get_lp w' i) = flat (g0 ++ gs) /\
             base (get_lp w' i) = (length (flat g0), stofg i gdone) /\ Abs.hist cont a' i = map ent (gdone ++ gs) /\
             (forall g, In g gdone -> (Z.of_N (tm (snd g)) < k_gvt w')%Z /\ Abs.doomedb cont a' (amsg (snd g)) = false) /\
             ((exists ms im, g0 = [(ms, im)] /\ is_init im /\ gdone = []) \/ g0 = []).
Proof.
  intros Hr Hl Eah Hghost Hshape Eh' Eb' Hget Eg Ea' Eao Hhl Hmt Han i Hi.
  pose proof (reach_Inv a (r_reach _ _ Hr)) as I.
  assert (Hkeep : forall k gi, k < n -> In (ent gi) (Abs.hist cont a k) -> (Z.of_N (tm (snd gi)) < k_gvt w)%Z ->
            Abs.doomedb cont a (amsg (snd gi)) = false -> Abs.doomedb cont a' (amsg (snd gi)) = false).
  { intros k gi Hk Hin Ht. apply (ghost_kept a a' l hl (k_gvt w) k gi I Hk Hl Hin); [|exact Hmt|exact Ht|exact Han].
    intros g Hg. rewrite Eah. apply in_map, in_or_app. right. apply Hhl, Hg. }
  rewrite Eg. destruct (Nat.eq_dec i l) as [->|Hne].
  - exists g0, gdone, gs'. split; [exact Eh'|]. split; [exact Eb'|]. split; [exact Ea'|]. split; [|exact Hshape].
    intros g Hg. destruct (Hghost g Hg) as [H1 H2]. split; [exact H1|]. apply (Hkeep l g Hl); [|exact H1|exact H2].
    rewrite Eah. apply in_map, in_or_app. left. exact Hg.
  - destruct (r_hist _ _ Hr i Hi) as (g0' & gdone' & gs0 & E1 & E2 & E3 & E4 & E5). exists g0', gdone', gs0. rewrite (Hget i Hne), (Eao i Hne).
    split; [exact E1|]. split; [exact E2|]. split; [exact E3|]. split; [|exact E5].
    intros g Hg. destruct (E4 g Hg) as [H1 H2]. split; [exact H1|]. apply (Hkeep i g Hi); [|exact H1|exact H2].
    rewrite E3. apply in_map, in_or_app. left. exact Hg.
Qed.

(* the message in hand: what is known when process_msg looks at the flag word of the message m it has extracted
   ([w2]: the state after the extraction and the lazy fossil collection of m's LP) *)
Lemma in_hand w2 a m : R (wq_insert w2 m) a ->
  let l := N.to_nat (e_dest (wm_ev m)) in
  Loc (k_gvt w2) (k_flags w2) (m :: pend w2) (allprocs (k_lps w2)) (allmarks (k_lps w2)) (k_next w2) /\
  (forall y, In y (allprocs (k_lps w2)) -> wm_id y = wm_id m -> y = m) /\
  l < n /\ tyok m /\ ge (k_gvt w2) m /\ all_ok2 p w2 /\ lp_extra n l (get_lp w2 l) /\ lp_time (get_lp w2 l) /\
  Mk0 (k_flags w2) (m :: pend w2) (allmarks (k_lps w2)) /\ No5 (k_flags w2) (allprocs (k_lps w2)) /\
  img amsg (Abs.pool cont a) (Live (k_flags w2) (m :: pend w2)) /\
  img Pos.to_nat (Abs.antis cont a) (Dm (k_flags w2) (m :: pend w2) (allprocs (k_lps w2))) /\ length (k_lps w2) = n /\ aInv a.
Proof.
  intros [F Hlen M0 N5 Hre _ Hp Ha _] l. destruct (f_extra p _ F) as [Hxp Hxl]. destruct (Hxp m (or_introl eq_refl)) as [Hty Hdl].
  fold l in Hdl. pose proof (get_time _ l (f_good p _ F) Hdl) as Ht. specialize (Hxl l Hdl). rewrite Hlen in Hdl, Hxl.
  split; [exact (f_once p _ F)|]. split; [intros y Hy; apply (l_body _ _ _ _ _ _ (f_once p _ F)); apply in_or_app; [right; apply in_or_app; left; exact Hy|left; exact (or_introl eq_refl)]|].
  split; [exact Hdl|]. split; [exact Hty|]. split; [exact (s_pend _ (f_good p _ F) m (or_introl eq_refl))|].
  split; [exact (f_ok p _ F)|]. split; [exact Hxl|]. split; [exact Ht|]. exact (conj M0 (conj N5 (conj Hp (conj Ha (conj Hlen (reach_Inv a Hre)))))).
Qed.

Lemma hist_sub w w' l : length (k_lps w') = length (k_lps w) -> (forall i, i <> l -> get_lp w' i = get_lp w i) ->
  (forall e, In e (x_hist (get_lp w' l)) -> In e (x_hist (get_lp w l))) ->
  (forall y, In y (allprocs (k_lps w')) -> In y (allprocs (k_lps w))) /\ (forall y, In y (allmarks (k_lps w')) -> In y (allmarks (k_lps w))).
Proof.
  intros El Ho Hs.
  assert (H : forall i e, In e (x_hist (get_lp w' i)) -> In e (x_hist (get_lp w i))) by (intros i e; destruct (Nat.eq_dec i l) as [->|Hne]; [apply Hs|rewrite (Ho i Hne); exact id]).
  split; intros y Hy; [apply in_allprocs_iff in Hy; apply in_allprocs_iff|apply in_allmarks_iff in Hy; apply in_allmarks_iff];
    destruct Hy as (i & Hi & Hin); exists i; (split; [rewrite <- El; exact Hi|apply H, Hin]).
Qed.

Lemma group_procs w l gs : l < length (k_lps w) -> x_hist (get_lp w l) = flat gs -> forall g, In g gs -> In (snd g) (allprocs (k_lps w)).
Proof. intros Hl E g Hg. apply in_allprocs_iff. exists l. split; [exact Hl|]. rewrite E. apply in_procs. rewrite procs_flat. apply in_map, Hg. Qed.
Lemma group_nodup w l gs : NoDup (map wm_id (allprocs (k_lps w))) -> l < length (k_lps w) -> x_hist (get_lp w l) = flat gs ->
  NoDup (map wm_id (map snd gs)).
Proof. intros Hnd Hl E. pose proof (nodup_flat_map wm_id _ _ _ Hnd (get_lp_in w l Hl)) as H. cbn beta in H. rewrite E, procs_flat in H. exact H. Qed.

Lemma rollback_frame w l gk gu : all_ok2 p w -> l < length (k_lps w) -> x_hist (get_lp w l) = flat (gk ++ gu) ->
  fst (base (get_lp w l)) <= length (flat gk) ->
  let w1 := fold_left undo_entry (flat gu) w in
  exists x', do_rollback p w l (length (flat gk)) = put_lp w1 l x' /\ x_hist x' = flat gk /\ base x' = base (get_lp w l) /\
    Permutation (allprocs (k_lps w)) (map snd gu ++ allprocs (k_lps (put_lp w1 l x'))) /\
    Permutation (allmarks (k_lps w)) (flat_map fst gu ++ allmarks (k_lps (put_lp w1 l x'))).
Proof.
  intros Hok Hl Eh Hb. set (x := get_lp w l) in *. set (past := length (flat gk)).
  assert (Ef : firstn past (x_hist x) = flat gk) by (unfold past; rewrite Eh, flat_app, firstn_app_l, firstn_all by apply le_n; reflexivity).
  assert (Es : skipn past (x_hist x) = flat gu) by (unfold past; rewrite Eh, flat_app, skipn_app_l, skipn_all by apply le_n; reflexivity).
  destruct (get_ok2 p w l Hok Hl) as [Hlok _]. fold x in Hlok. pose proof (drop_newer_some p x past Hlok Hb) as Hne.
  destruct (drop_newer (x_logs x) past) as [|[ref snap] older] eqn:Hd; [congruence|].
  destruct (log_cut p x past ref snap older Hlok Hd) as (_ & _ & _ & _ & _ & Eb & _).
  cbn zeta. rewrite (do_rollback_unfold p w l past ref snap older Hd). fold x. rewrite Ef, Es. set (x' := mkLpx _ _ _ _ _ _).
  pose proof (undo_all_lps (flat gu) w) as E1. set (w1 := fold_left undo_entry (flat gu) w) in *.
  assert (Hl1 : l < length (k_lps w1)) by (rewrite E1; exact Hl).
  assert (Eh1 : x_hist (get_lp w1 l) = flat gk ++ flat gu ++ []) by (unfold get_lp; rewrite E1, app_nil_r, <- flat_app; exact Eh).
  exists x'. split; [reflexivity|]. split; [reflexivity|]. split; [exact Eb|]. rewrite <- (procs_flat gu), <- (marks_flat gu), <- E1. split.
  - exact (put_hist_perm procs_of procs_app w1 l x' _ _ [] Hl1 Eh1 (eq_sym (app_nil_r _))).
  - exact (put_hist_perm marks_of marks_app w1 l x' _ _ [] Hl1 Eh1 (eq_sym (app_nil_r _))).
Qed.

(* a rollback of LP l to the end of the groups gk0, with the messages [hand] in hand: the processed messages of the undone
   groups gu go back to the pool (the one with flag word 5, whose notice started the rollback, is annihilated instead and
   its identity leaves the cancelled set), the messages they had sent are cancelled *)
Lemma rollback_sets w3 l hand gk0 gu :
  all_ok2 p w3 -> l < length (k_lps w3) -> x_hist (get_lp w3 l) = flat (gk0 ++ gu) -> fst (base (get_lp w3 l)) <= length (flat gk0) ->
  Loc (k_gvt w3) (k_flags w3) (pend w3) (hand ++ allprocs (k_lps w3)) (allmarks (k_lps w3)) (k_next w3) ->
  Mk0 (k_flags w3) (pend w3) (allmarks (k_lps w3)) ->
  (forall o, In o (flat_map fst gu) -> (k_gvt w3 <= Z.of_N (tm o))%Z) ->
  let w4 := do_rollback p w3 l (length (flat gk0)) in
  x_hist (get_lp w4 l) = flat gk0 /\ base (get_lp w4 l) = base (get_lp w3 l) /\
  Loc (k_gvt w3) (k_flags w4) (pend w4) (hand ++ allprocs (k_lps w4)) (allmarks (k_lps w4)) (k_next w3) /\
  (forall y, Live (k_flags w4) (pend w4) y <-> Live (k_flags w3) (pend w3) y \/ (In y (map snd gu) /\ fl (k_flags w3) y <> 5%N)) /\
  (forall i, Dm (k_flags w4) (pend w4) (hand ++ allprocs (k_lps w4)) i <->
     (Dm (k_flags w3) (pend w3) (hand ++ allprocs (k_lps w3)) i /\ (forall y, In y (map snd gu) -> fl (k_flags w3) y = 5%N -> i <> wm_id y)) \/
     In i (map wm_id (flat_map fst gu))) /\
  Mk0 (k_flags w4) (pend w4) (allmarks (k_lps w4)) /\
  (forall y, In y (hand ++ allprocs (k_lps w4)) ->
     In y (hand ++ allprocs (k_lps w3)) /\ ~ In y (map snd gu) /\ (fl (k_flags w4) y = 5%N <-> fl (k_flags w3) y = 5%N)).
Proof.
  intros Hok Hl Eh Hb HL M0 Hmt. destruct (rollback_frame w3 l gk0 gu Hok Hl Eh Hb) as (x' & -> & Ex & Eb & PP & PM). cbn zeta in PP, PM |- *.
  set (w1 := fold_left undo_entry (flat gu) w3) in *. assert (Hl1 : l < length (k_lps w1)) by (unfold w1; rewrite undo_all_lps; exact Hl).
  rewrite !get_lp_set by exact Hl1. split; [exact Ex|]. split; [exact Eb|].
  set (pr4 := allprocs (k_lps (put_lp w1 l x'))) in *. set (mk4 := allmarks (k_lps (put_lp w1 l x'))) in *.
  change (pend (put_lp w1 l x')) with (pend w1). change (k_flags (put_lp w1 l x')) with (k_flags w1).
  assert (HL' : Loc (k_gvt w3) (k_flags w3) (pend w3) (procs_of (flat gu) ++ hand ++ pr4) (marks_of (flat gu) ++ mk4) (k_next w3)).
  { rewrite procs_flat, marks_flat. eapply Loc_perm; [exact HL|apply Permutation_refl|rewrite PP; apply Permutation_app_swap_app|exact PM]. }
  destruct (undo_all_sets (k_gvt w3) (flat gu) w3 (hand ++ pr4) mk4 HL') as (U1 & U2 & U3 & U4 & U5).
  { rewrite marks_flat. intros o Ho. apply M0, (Permutation_in _ (Permutation_sym PM)), Ho. }
  { intros o Ho. apply Hmt. rewrite <- marks_flat. apply in_marks, Ho. }
  cbn zeta in U1, U2, U3, U4, U5. fold w1 in U1, U2, U3, U4, U5. rewrite procs_flat in U2, U3. rewrite marks_flat in U3.
  assert (Hmem : forall y, In y (map snd gu ++ hand ++ pr4) <-> In y (hand ++ allprocs (k_lps w3))).
  { intros y. rewrite !in_app_iff. split.
    - intros [H|[H|H]]; [right|left; exact H|right]; apply (Permutation_in _ (Permutation_sym PP)), in_or_app; tauto.
    - intros [H|H]; [tauto|]. apply (Permutation_in _ PP), in_app_or in H. tauto. }
  split; [exact U1|]. split; [exact U2|]. split; [|split; [exact U4|]].
  - intros i. rewrite U3. apply or_iff_compat_r, and_iff_compat_r, Dm_ext, Hmem.
  - intros y Hy. split; [apply Hmem, in_or_app; right; exact Hy|]. split; [|exact (U5 y Hy)].
    intros Hg. pose proof (l_nd_pr _ _ _ _ _ _ HL') as Hnd. rewrite procs_flat, map_app in Hnd.
    exact (Abs.nodup_app_disj _ _ _ Hnd (in_map wm_id _ _ Hg) (in_map wm_id _ _ Hy)).
Qed.

(* a message cancelled while pending is dropped: abstract step s_drop *)
Lemma sim_drop w2 a m : R (wq_insert w2 m) a -> fl (k_flags w2) m = 1%N ->
  let l := N.to_nat (e_dest (wm_ev m)) in
  let w3 := set_flags w2 (flag_set (k_flags w2) (wm_id m) 3) in
  let w' := put_lp w3 l (fix_bound (get_lp w3 l)) in
  full p w' -> exists a', astep a a' /\ R w' a'.
Proof.
  intros Hr Hfm l w3 w' F'. destruct (in_hand w2 a m Hr) as (L & Hidp & Hdl & _ & _ & _ & _ & _ & M0 & N5 & Hp & Ha & Hlen & I). fold l in Hdl.
  assert (Hnpr : ~ In m (allprocs (k_lps w2))) by (destruct (l_pd _ _ _ _ _ _ L m (or_introl eq_refl)) as [[H _]|[_ H]]; [rewrite Hfm in H; discriminate|exact H]).
  destruct (hand_sets _ _ m 3 _ _ _ _ (allprocs (k_lps w2)) L M0 ltac:(discriminate) (fun x _ => iff_refl _)) as (SL & SD & M3).
  assert (Hl3 : l < length (k_lps w3)) by (unfold w3; cbn [set_flags k_lps]; rewrite Hlen; exact Hdl).
  destruct (put_same_hist w3 l (fix_bound (get_lp w3 l)) Hl3 (fix_bound_hist _)) as [Epp Emm].
  assert (Hpm : In (amsg m) (Abs.pool cont a)) by (apply Hp; exists m; split; [split; [left; reflexivity|right; exact Hfm]|reflexivity]).
  assert (Hdm : Abs.doomedb cont a (amsg m) = true).
  { apply (Abs.doomedb_true cont), Ha. exists (wm_id m). split; [|reflexivity]. exists m. split; [reflexivity|left; split; [left; reflexivity|exact Hfm]]. }
  pose proof (Abs.s_drop cont cltb tltb lpstate n (AppAbs.s0 p) (ahandle p) a (amsg m) Hpm Hdm) as Hstep.
  eexists. split; [exact Hstep|]. set (a' := {| Abs.hist := _; Abs.pool := _; Abs.antis := _; Abs.nid := _ |}).
  destruct (r_hist _ _ Hr l Hdl) as (g0 & gdone & gs & Eh & Eb & Eah & Hghost & Hshape).
  constructor.
  - exact F'.
  - unfold w'. rewrite put_lp_length. exact Hlen.
  - unfold w'. rewrite Emm. exact M3.
  - unfold w'. rewrite Epp. intros y Hy. change (k_flags (put_lp w3 _ _)) with (flag_set (k_flags w2) (wm_id m) 3). rewrite fl_set_other; [apply N5, Hy|].
    intros E. apply Hnpr. rewrite <- (Hidp y Hy E). exact Hy.
  - eapply Bridge.rs; [exact (r_reach _ _ Hr)|exact Hstep].
  - apply (hist_step (wq_insert w2 m) a w' a' l g0 gdone gs gs [] Hr Hdl Eah Hghost Hshape).
    + unfold w'. rewrite get_lp_set, fix_bound_hist by exact Hl3. exact Eh.
    + unfold w'. rewrite get_lp_set, fix_bound_base by exact Hl3. exact Eb.
    + intros i Hi. apply (get_put_other w3). exact Hi.
    + reflexivity.
    + exact Eah.
    + reflexivity.
    + intros g [].
    + intros o [].
    + intros j Hj. left. exact (remove_id_sub _ _ _ Hj).
  - apply (img_ext _ _ _ _ (img_remove1 m _ _ (pool_nodup a I) Hp)). exact SL.
  - unfold w'. rewrite Epp. apply (img_ext _ _ _ _ (img_remove_id (wm_id m) _ _ (Abs.i_nd_antis cont n init0 a I) Ha)). intros j.
    change (Dm (flag_set (k_flags w2) (wm_id m) 3) (pend w2) (allprocs (k_lps w2)) j <-> Dm (k_flags w2) (m :: pend w2) (allprocs (k_lps w2)) j /\ j <> wm_id m).
    rewrite SD. clear - Hnpr. tauto.
  - exact (r_nid _ _ Hr).
Qed.

Lemma news_next outs : forall k, Pos.to_nat (fold_left (fun k _ => Pos.succ k) (news_from k outs) k) = Pos.to_nat k + length (news_from k outs).
Proof. induction outs as [|e r IH]; intros k; cbn [news_from fold_left length]; [lia|]. rewrite IH, Pos2Nat.inj_succ. lia. Qed.

Lemma forward_exact w l m : l < length (k_lps w) -> lp_ok p (get_lp w l) ->
  let news := news_from (k_next w) (snd (handle p (wm_ev m) (x_st (get_lp w l)))) in
  let w' := forward p ck w l m in
  x_hist (get_lp w' l) = x_hist (get_lp w l) ++ map ESent news ++ [EProc m] /\
  (forall i, i <> l -> get_lp w' i = get_lp w i) /\ base (get_lp w' l) = base (get_lp w l) /\
  length (k_lps w') = length (k_lps w) /\ Pos.to_nat (k_next w') = Pos.to_nat (k_next w) + length news /\ k_gvt w' = k_gvt w.
Proof.
  intros Hl Hok. cbn zeta. rewrite forward_eq. cbn zeta. set (news := news_from _ _). set (x' := mkLpx _ _ _ _ _ _).
  rewrite get_lp_set, put_lp_length by exact Hl.
  split; [reflexivity|]. split; [intros i Hi; exact (get_put_other (sent_state w news) l x' i Hi)|]. split.
  { unfold base, x'. cbn [x_logs]. destruct (Nat.leb _ _); [|reflexivity]. change (?g :: x_logs (get_lp w l)) with ([g] ++ x_logs (get_lp w l)).
    apply last_suffix. apply lp_ok_base in Hok. apply Hok. }
  split; [reflexivity|]. split; [apply (news_next _ (k_next w))|reflexivity].
Qed.

Lemma forward_sets w l m : l < length (k_lps w) ->
  Loc (k_gvt w) (k_flags w) (pend w) ([m] ++ allprocs (k_lps w)) (allmarks (k_lps w)) (k_next w) ->
  let news := news_from (k_next w) (snd (handle p (wm_ev m) (x_st (get_lp w l)))) in
  let w' := forward p ck w l m in
  (forall y, Live (k_flags w') (pend w') y <-> Live (k_flags w) (pend w) y \/ In y news) /\
  (forall i, Dm (k_flags w') (pend w') (allprocs (k_lps w')) i <-> Dm (k_flags w) (pend w) ([m] ++ allprocs (k_lps w)) i) /\
  (Mk0 (k_flags w) (pend w) (allmarks (k_lps w)) -> Mk0 (k_flags w') (pend w') (allmarks (k_lps w'))) /\
  (No5 (k_flags w) ([m] ++ allprocs (k_lps w)) -> No5 (k_flags w') (allprocs (k_lps w'))).
Proof.
  intros Hl HL. cbn zeta. rewrite forward_eq. cbn zeta. set (news := news_from (k_next w) _). set (x' := mkLpx _ _ _ _ _ _).
  assert (Eh : x_hist x' = x_hist (get_lp (sent_state w news) l) ++ (map ESent news ++ [EProc m])) by reflexivity.
  assert (PP : Permutation (allprocs (k_lps (put_lp (sent_state w news) l x'))) ([m] ++ allprocs (k_lps w))).
  { unfold allprocs. rewrite (put_hist_more procs_of procs_app (sent_state w news) l x' _ Hl Eh), procs_app, procs_map_sent. reflexivity. }
  assert (PM : Permutation (allmarks (k_lps (put_lp (sent_state w news) l x'))) (news ++ allmarks (k_lps w))).
  { unfold allmarks. rewrite (put_hist_more marks_of marks_app (sent_state w news) l x' _ Hl Eh), marks_app, marks_map_sent. cbn. rewrite app_nil_r. reflexivity. }
  change (pend (put_lp (sent_state w news) l x')) with (pend (sent_state w news)). rewrite pend_sent.
  change (k_flags (put_lp (sent_state w news) l x')) with (fold_left (fun f z => flag_set f (wm_id z) 0) news (k_flags w)).
  set (pr' := allprocs (k_lps (put_lp _ _ _))) in *. set (mk' := allmarks (k_lps (put_lp _ _ _))) in *. clearbody pr' mk'. clear Eh x'.
  set (f' := fold_left _ news (k_flags w)).
  assert (Hold : forall y, In y (pend w ++ ([m] ++ allprocs (k_lps w)) ++ allmarks (k_lps w)) -> fl f' y = fl (k_flags w) y).
  { intros y Hy. apply news_flags. intros z Hz E. apply news_ids_ge in Hz. pose proof (l_lt _ _ _ _ _ _ HL y Hy) as Hlt. rewrite E in Hz.
    exact (Pos.lt_irrefl _ (Pos.lt_le_trans _ _ _ Hlt Hz)). }
  assert (Hpd : forall y, In y (pend w) -> fl f' y = fl (k_flags w) y) by (intros y Hy; apply Hold, in_or_app; left; exact Hy).
  assert (Hpr : forall y, In y ([m] ++ allprocs (k_lps w)) -> fl f' y = fl (k_flags w) y) by (intros y Hy; apply Hold, in_or_app; right; apply in_or_app; left; exact Hy).
  assert (Hnew : forall y, In y news -> fl f' y = 0%N) by (intros y; apply news_flags_new).
  split; [|split; [|split]].
  - intros y. unfold Live. rewrite in_app_iff, <- in_rev. split.
    + intros [[Hy|Hy] Hf]; [right; exact Hy|left]. rewrite (Hpd y Hy) in Hf. split; assumption.
    + intros [[Hy Hf]|Hy]; [split; [right; exact Hy|rewrite (Hpd y Hy); exact Hf]|split; [left; exact Hy|left; apply Hnew, Hy]].
  - intros i. unfold Dm. split; intros (y & Ey & H); exists y; (split; [exact Ey|]); destruct H as [[Hy Hf]|[Hy Hf]].
    + apply in_app_or in Hy. destruct Hy as [Hy|Hy]; [apply in_rev in Hy; rewrite (Hnew y Hy) in Hf; discriminate|]. left. rewrite (Hpd y Hy) in Hf. split; assumption.
    + apply (Permutation_in _ PP) in Hy. right. rewrite (Hpr y Hy) in Hf. split; assumption.
    + left. split; [apply in_or_app; right; exact Hy|rewrite (Hpd y Hy); exact Hf].
    + right. split; [exact (Permutation_in _ (Permutation_sym PP) Hy)|rewrite (Hpr y Hy); exact Hf].
  - intros M0 o Ho Hf. apply (Permutation_in _ PM), in_app_or in Ho. apply in_or_app. destruct Ho as [Ho|Ho]; [left; apply in_rev in Ho; exact Ho|right].
    rewrite Hold in Hf by (rewrite !in_app_iff; tauto). exact (M0 o Ho Hf).
  - intros N y Hy. apply (Permutation_in _ PP) in Hy. rewrite (Hpr y Hy). exact (N y Hy).
Qed.

Lemma skipn_flat_init ms im gk : skipn (S (length ms)) (flat ((ms, im) :: gk)) = flat gk.
Proof using p.
  rewrite flat_cons. replace (S (length ms)) with (length (map ESent ms ++ [EProc im])) by (rewrite app_length, map_length; cbn; lia).
  change (map ESent ms ++ EProc im :: flat gk) with (map ESent ms ++ [EProc im] ++ flat gk). rewrite app_assoc, skipn_app, skipn_all, Nat.sub_diag. reflexivity.
Qed.

Lemma stofg_app l (a b : list group) : (l < nlps p)%nat -> (forall g, In g b -> e_dest (wm_ev (snd g)) = N.of_nat l) ->
  replay p (stofg l a) (flat b) = stofg l (a ++ b).
Proof.
  intros Hl Hd. unfold stofg, Abs.stof. rewrite map_app, fold_left_app, replay_flat. symmetry. apply stof_flat; assumption.
Qed.
Lemma group_dest nn l x gs : lp_extra nn l x -> x_hist x = flat gs -> forall g, In g gs -> e_dest (wm_ev (snd g)) = N.of_nat l.
Proof. intros (_ & _ & Hd & _) E g Hg. rewrite <- (Hd (snd g)); [rewrite N2Nat.id; reflexivity|]. rewrite E. apply in_procs. rewrite procs_flat. apply in_map, Hg. Qed.

Lemma number_news l outs : forall k, Abs.number cont (Pos.to_nat k) l (map pay_of outs) = map amsg (news_from k outs).
Proof.
  induction outs as [|e r IH]; intros k; cbn [map news_from Abs.number]; [reflexivity|].
  unfold pay_of at 1. cbn [Abs.number]. rewrite <- IH. rewrite Pos2Nat.inj_succ. reflexivity.
Qed.

(* where an ordinary message m cuts the grouped history of its LP: the groups gu whose processed message m is ordered before are
   undone (none if m is not a straggler); the one before them, if any, stays *)
Lemma straggler_cut f m x g0 gs :
  lp_ok2 p x -> lp_base x -> lp_time x -> fl f m = 2%N -> tyok m ->
  x_hist x = flat (g0 ++ gs) -> fst (base x) = length (flat g0) -> (g0 = [] \/ exists ms im, g0 = [(ms, im)]) ->
  let strag := match last_proc (x_hist x) with Some lastm => (Z.of_N (e_t (wm_ev m)) <=? x_bound x)%Z && wbefore f m lastm | None => false end in
  exists gk gu, gs = gk ++ gu /\
    (forall g, In g gu -> wbefore f m (snd g) = true) /\ (gk = [] \/ exists gk' g, gk = gk' ++ [g] /\ wbefore f m (snd g) = false) /\
    (strag = true -> straggler_index f m (x_hist x) = length (flat (g0 ++ gk))) /\ (strag = false -> gu = []) /\
    (forall o, In o (flat_map fst gu) -> (tm m <= tm o)%N).
Proof.
  intros [Hlok Hlwf] Hbase Htime Hf Hty Ehist Ebase Hshape strag. destruct strag eqn:Es.
  - unfold strag in Es. destruct (last_proc (x_hist x)) as [lastm|] eqn:Elast; [|discriminate]. apply andb_true_iff in Es. destruct Es as [_ Ew].
    destruct (straggler_index_spec f m (x_hist x) lastm Elast Ew) as [Habove Hstop]. cbn zeta in Habove, Hstop.
    destruct (straggler_index_bnd f m (x_hist x)) as [Hbnd Hkle].
    pose proof (straggler_ge_base p f m x lastm Hlok Hbase Hf Hty Elast Ew) as Hbk.
    set (k := straggler_index f m (x_hist x)) in *.
    pose proof (undone_ge p (app_handle_time p) x k (tm m) (conj Hlok Hlwf) Hbnd Hbk Hkle (fun y Hy => wbefore_le f m y (Habove y Hy))) as Hund.
    rewrite Ebase in Hbk. rewrite Ehist in Hbnd, Hkle.
    destruct (flat_g0_cut g0 gs k Hshape Hbnd Hkle Hbk) as (gk & gu & Egs & Ek).
    assert (Eskip : skipn k (x_hist x) = flat gu) by (rewrite Ehist, Egs, Ek, app_assoc; apply skipn_flat_app).
    exists gk, gu. split; [exact Egs|]. split; [|split; [|split; [intros _; exact Ek|split; [discriminate|]]]].
    + intros g Hgg. apply Habove. rewrite Eskip. apply in_procs. rewrite procs_flat. apply in_map. exact Hgg.
    + destruct gk as [|gl gk0] using rev_ind; [left; reflexivity|right]. exists gk0, gl. split; [reflexivity|].
      destruct Hstop as [Hk0|(e & Hne & Hwe)].
      { exfalso. rewrite Hk0, !flat_app, !app_length in Ek. unfold flat at 3 in Ek. cbn [flat_map] in Ek. unfold flat1 in Ek. rewrite !app_length in Ek. cbn [length] in Ek. lia. }
      assert (Ex2 : x_hist x = flat (((g0 ++ gk0) ++ [gl]) ++ gu)) by (rewrite Ehist, Egs, !app_assoc; reflexivity).
      assert (Ek2 : k = length (flat ((g0 ++ gk0) ++ [gl]))) by (rewrite Ek, app_assoc; reflexivity).
      rewrite Ex2, Ek2, nth_flat_last in Hne. injection Hne as <-. exact Hwe.
    + intros o Ho. apply Hund. rewrite Eskip. apply in_marks. rewrite marks_flat. exact Ho.
  - exists gs, []. rewrite app_nil_r. split; [reflexivity|]. split; [intros g []|]. split; [|split; [discriminate|split; [reflexivity|intros o []]]].
    destruct gs as [|gl gs0] using rev_ind; [left; reflexivity|right]. exists gs0, gl. split; [reflexivity|].
    assert (Elast : last_proc (x_hist x) = Some (snd gl)).
    { unfold last_proc. rewrite Ehist, app_assoc, flat_app, rev_app_distr. unfold flat at 1. cbn [flat_map]. rewrite app_nil_r. unfold flat1. rewrite rev_app_distr. reflexivity. }
    unfold strag in Es. rewrite Elast in Es. apply andb_false_iff in Es. destruct Es as [Eb|Ew]; [|exact Ew].
    apply Z.leb_gt in Eb. destruct (wbefore f m (snd gl)) eqn:Ew; [|reflexivity]. apply wbefore_le in Ew. exfalso.
    assert (Hin : In (tm (snd gl)) (ptimes (x_hist x))) by (apply ptimes_in, in_procs; rewrite Ehist, procs_flat, !map_app; apply in_or_app; right; apply in_or_app; right; left; reflexivity).
    specialize (proj2 Htime _ Hin). unfold tm in *. lia.
Qed.

(* the rollback a straggler starts, if there is one: none of the undone messages is being annihilated *)
Lemma straggler_rollback (b : bool) w3 l hand gk0 gu :
  all_ok2 p w3 -> l < length (k_lps w3) -> x_hist (get_lp w3 l) = flat (gk0 ++ gu) -> fst (base (get_lp w3 l)) <= length (flat gk0) ->
  Loc (k_gvt w3) (k_flags w3) (pend w3) (hand ++ allprocs (k_lps w3)) (allmarks (k_lps w3)) (k_next w3) ->
  Mk0 (k_flags w3) (pend w3) (allmarks (k_lps w3)) -> No5 (k_flags w3) (hand ++ allprocs (k_lps w3)) ->
  (forall o, In o (flat_map fst gu) -> (k_gvt w3 <= Z.of_N (tm o))%Z) -> (b = false -> gu = []) ->
  let w4 := if b then do_rollback p w3 l (length (flat gk0)) else w3 in
  all_ok2 p w4 /\ x_hist (get_lp w4 l) = flat gk0 /\ base (get_lp w4 l) = base (get_lp w3 l) /\ (forall i, i <> l -> get_lp w4 i = get_lp w3 i) /\
  length (k_lps w4) = length (k_lps w3) /\ k_next w4 = k_next w3 /\ k_gvt w4 = k_gvt w3 /\
  Loc (k_gvt w4) (k_flags w4) (pend w4) (hand ++ allprocs (k_lps w4)) (allmarks (k_lps w4)) (k_next w4) /\
  (forall y, Live (k_flags w4) (pend w4) y <-> Live (k_flags w3) (pend w3) y \/ In y (map snd gu)) /\
  (forall i, Dm (k_flags w4) (pend w4) (hand ++ allprocs (k_lps w4)) i <-> Dm (k_flags w3) (pend w3) (hand ++ allprocs (k_lps w3)) i \/ In i (map wm_id (flat_map fst gu))) /\
  Mk0 (k_flags w4) (pend w4) (allmarks (k_lps w4)) /\ No5 (k_flags w4) (hand ++ allprocs (k_lps w4)).
Proof.
  intros Ok Hl Eh Hb HL M0 N5 Hmt Hnos. destruct b; cbn zeta.
  - destruct (rollback_sets w3 l hand gk0 gu Ok Hl Eh Hb HL M0 Hmt) as (Q1 & Q3 & Q9 & Q10 & Q11 & Q12 & Q13).
    destruct (do_rollback_same_gvt p w3 l (length (flat gk0))) as ((Q7 & _) & _ & _ & Q6 & Q5 & Q2).
    assert (Hg5 : forall y, In y (map snd gu) -> fl (k_flags w3) y <> 5%N).
    { intros y Hy. apply N5, in_or_app. right. apply in_map_iff in Hy. destruct Hy as (g & <- & Hg). apply (group_procs w3 l _ Hl Eh), in_or_app. right. exact Hg. }
    split; [apply do_rollback_ok2; [exact Ok|intros _; rewrite Eh; apply bnd_flat_prefix]|].
    split; [exact Q1|]. split; [exact Q3|]. split; [exact Q2|]. split; [exact Q5|]. split; [exact Q6|]. split; [exact Q7|].
    split; [rewrite Q6, Q7; exact Q9|]. split; [|split; [|split; [exact Q12|]]].
    + intros y. rewrite Q10. apply or_iff_compat_l. split; [tauto|]. intros Hy. split; [exact Hy|apply Hg5, Hy].
    + intros i. rewrite Q11. apply or_iff_compat_r. split; [tauto|]. intros H. split; [exact H|]. intros y Hy F5. destruct (Hg5 y Hy F5).
    + intros y Hy. destruct (Q13 y Hy) as (Hy3 & _ & F5). rewrite F5. apply N5, Hy3.
  - rewrite (Hnos eq_refl) in *. rewrite app_nil_r in Eh. split; [exact Ok|]. split; [exact Eh|]. do 5 (split; [reflexivity|]). split; [exact HL|].
    split; [intros y; cbn [map In]; tauto|]. split; [intros i; cbn [flat_map map In]; tauto|]. split; [exact M0|exact N5].
Qed.

(* an ordinary message, possibly a straggler: abstract step s_process *)
Lemma sim_process w2 a m : R (wq_insert w2 m) a -> fl (k_flags w2) m = 0%N ->
  let l := N.to_nat (e_dest (wm_ev m)) in
  let w3 := set_flags w2 (flag_set (k_flags w2) (wm_id m) 2) in
  let x := get_lp w3 l in
  let strag := match last_proc (x_hist x) with Some lastm => (Z.of_N (e_t (wm_ev m)) <=? x_bound x)%Z && wbefore (k_flags w3) m lastm | None => false end in
  let w4 := if strag then do_rollback p w3 l (straggler_index (k_flags w3) m (x_hist x)) else w3 in
  let w' := forward p ck w4 l m in
  full p w' -> exists a', astep a a' /\ R w' a'.
Proof.
  intros Hr Hfm l w3 x strag w4 w' F'. subst w'.
  destruct (in_hand w2 a m Hr) as (L & Hidp & Hdl & Hty & Hgm & Ok & Hxl & Htime & M0 & N5 & Hp & Ha & Hlen & I). fold l in Hdl, Hxl, Htime. unfold ge in Hgm.
  assert (Hnpr : ~ In m (allprocs (k_lps w2))) by (destruct (l_pd _ _ _ _ _ _ L m (or_introl eq_refl)) as [[H _]|[_ H]]; [rewrite Hfm in H; discriminate|exact H]).
  assert (HnDm : ~ Dm (k_flags w2) (m :: pend w2) (allprocs (k_lps w2)) (wm_id m)).
  { intros H. apply (Dm_at _ _ _ _ _ _ m L (or_introl eq_refl)) in H. rewrite Hfm in H. destruct H as [[_ H]|[_ [H|H]]]; discriminate. }
  pose proof (Loc_extract0 _ _ _ _ _ _ _ L Hfm) as HL3.
  destruct (hand_sets _ _ m 2 _ _ _ _ (m :: allprocs (k_lps w2)) L M0 ltac:(discriminate)) as (SL & SD & M3); [intros y Hy; cbn [In]; intuition congruence|].
  assert (Hl3 : l < length (k_lps w3)) by (unfold w3; cbn [set_flags k_lps]; rewrite Hlen; exact Hdl).
  assert (Hf3m : fl (k_flags w3) m = 2%N) by apply fl_set_same.
  assert (N53 : No5 (k_flags w3) ([m] ++ allprocs (k_lps w3))).
  { intros y [<-|Hy]; [rewrite Hf3m; discriminate|]. unfold w3. cbn [set_flags k_flags]. rewrite fl_set_other; [apply N5, Hy|].
    intros E. apply Hnpr. rewrite <- (Hidp y Hy E). exact Hy. }
  destruct (r_hist _ _ Hr l Hdl) as (g0 & gdone & gs & Eh & Eb & Eah & Hghost & Hshape).
  pose proof (shape_g0 _ _ Hshape) as Hshape'.
  destruct (straggler_cut (k_flags w3) m x g0 gs (get_ok2 p w3 l Ok Hl3) (proj1 Hxl) Htime Hf3m Hty Eh (f_equal fst Eb) Hshape') as (gk & gu & -> & Hgu & Hgk & Ek & Hnos & Hund).
  cbn zeta in Ek, Hnos. fold strag in Ek, Hnos.
  assert (Hmt : forall o, In o (flat_map fst gu) -> (k_gvt w3 <= Z.of_N (tm o))%Z) by (intros o Ho; specialize (Hund o Ho); change (k_gvt w3) with (k_gvt w2); lia).
  pose proof (group_procs w3 l _ Hl3 Eh) as Hpin.
  (* the abstract machine cuts at the same place *)
  assert (Hdb : forall g, In g (gk ++ gu) -> Abs.dbefore cont cltb tltb a (amsg m) (ent g) = wbefore (k_flags w3) m (snd g)).
  { intros g Hg. assert (Hy : In (snd g) (allprocs (k_lps w2))) by (apply Hpin, in_or_app; right; exact Hg).
    apply (dbefore_wbefore (wq_insert w2 m) a m (snd g) (k_flags w3) Hr Hy); [intros z Hz; apply fl_set_other, Hz| |exact Hf3m].
    intros E. apply Hnpr. rewrite <- (Hidp (snd g) Hy E). exact Hy. }
  assert (Hdbg : forall g, In g gdone -> Abs.dbefore cont cltb tltb a (amsg m) (ent g) = false).
  { intros g Hg. destruct (Hghost g Hg) as [Ht Hd]. unfold Abs.dbefore. cbn [ent Abs.em snd]. rewrite Hd. cbn [amsg Abs.mc]. apply cltb_time_false.
    unfold cont_of, c_t. cbn [fst]. unfold tm in *. change (k_gvt (wq_insert w2 m)) with (k_gvt w2) in Ht. lia. }
  destruct (keep_undo_ghosts a (k_flags w3) m gdone gk gu Hdbg Hdb Hgu Hgk) as [Ekeep Eundo].
  assert (Ew4 : w4 = if strag then do_rollback p w3 l (length (flat (g0 ++ gk))) else w3) by (unfold w4; destruct strag; [rewrite (Ek eq_refl)|]; reflexivity).
  rewrite app_assoc in Eh. pose proof (f_equal fst Eb) as Eb1. cbn [fst] in Eb1.
  pose proof (straggler_rollback strag w3 l [m] (g0 ++ gk) gu Ok Hl3 Eh ltac:(change (get_lp w3 l) with (get_lp (wq_insert w2 m) l); rewrite Eb1, flat_app, app_length; apply Nat.le_add_r)
                HL3 M3 N53 Hmt Hnos) as H4.
  cbn zeta in H4. rewrite <- Ew4 in H4. clearbody w4. clear Ew4 Ek.
  destruct H4 as (Ok4 & Q1 & Q3 & Q2 & Q5 & Q6 & Q7 & Q9 & Q10 & Q11 & Q12 & Q13).
  assert (Hl4 : l < length (k_lps w4)) by (rewrite Q5; exact Hl3).
  destruct (get_ok2 p w4 l Ok4 Hl4) as [Hlok4 _].
  (* the forward execution: the handler runs on the replay of the kept history, the abstract machine's state *)
  destruct (forward_exact w4 l m Hl4 Hlok4) as (W1 & W2 & W3 & W5 & W6 & W7). destruct (forward_sets w4 l m Hl4 Q9) as (FL & FD & FM & FN).
  set (news := news_from (k_next w4) (snd (handle p (wm_ev m) (x_st (get_lp w4 l))))) in *.
  assert (Est : x_st (get_lp w4 l) = Abs.stof cont lpstate (AppAbs.s0 p) (ahandle p) l (map ent (gdone ++ gk))).
  { apply lp_ok_base in Hlok4. destruct Hlok4 as (_ & _ & _ & Hst). rewrite Q3 in Hst. change (get_lp w3 l) with (get_lp (wq_insert w2 m) l) in Hst. rewrite Eb in Hst.
    cbn [fst snd] in Hst. rewrite Hst, Q1, skipn_flat_app. apply stofg_app; [exact Hdl|]. intros g Hg. apply (group_dest n l _ _ Hxl Eh), in_or_app. left. apply in_or_app. right. exact Hg. }
  assert (Hdm : e_dest (wm_ev m) = N.of_nat l) by (unfold l; rewrite N2Nat.id; reflexivity).
  assert (Hpm : In (amsg m) (Abs.pool cont a)) by (apply Hp; exists m; split; [split; [left; reflexivity|left; exact Hfm]|reflexivity]).
  assert (Hnd : Abs.doomedb cont a (amsg m) = false).
  { apply (Abs.doomedb_false cont). intros Ed. apply Ha in Ed. destruct Ed as (j & Hj & Ej). cbn [amsg Abs.mid] in Ej. apply Pos2Nat.inj in Ej. subst j. exact (HnDm Hj). }
  pose proof (Abs.s_process cont cltb tltb lpstate n (AppAbs.s0 p) (ahandle p) a l (amsg m) Hdl Hpm eq_refl Hnd) as Hstep. cbn zeta in Hstep.
  rewrite Eah, Ekeep, Eundo in Hstep. cbn [amsg Abs.mc] in Hstep.
  rewrite <- Est, (ahandle_eq p l _ (wm_ev m) Hdl Hdm) in Hstep. cbn [snd] in Hstep.
  pose proof (r_nid _ _ Hr) as Hn. change (k_next (wq_insert w2 m)) with (k_next w3) in Hn. rewrite <- Q6 in Hn.
  rewrite Hn, (number_news l _ (k_next w4)) in Hstep. fold news in Hstep.
  eexists. split; [exact Hstep|]. set (a' := {| Abs.hist := _; Abs.pool := _; Abs.antis := _; Abs.nid := _ |}).
  constructor.
  - exact F'.
  - rewrite W5, Q5. exact Hlen.
  - exact (FM Q12).
  - exact (FN Q13).
  - eapply Bridge.rs; [exact (r_reach _ _ Hr)|exact Hstep].
  - apply (hist_step (wq_insert w2 m) a _ a' l g0 gdone (gk ++ gu) (gk ++ [(news, m)]) gu Hr Hdl Eah Hghost Hshape).
    + rewrite W1, Q1, (app_assoc g0 gk), (flat_app (g0 ++ gk)). unfold flat at 3. cbn [flat_map]. rewrite app_nil_r. reflexivity.
    + rewrite W3, Q3. exact Eb.
    + intros i Hi. rewrite (W2 i Hi). exact (Q2 i Hi).
    + rewrite W7. exact Q7.
    + unfold a'. cbn [Abs.hist]. rewrite Abs.upd_same, (app_assoc gdone gk), (map_app ent (gdone ++ gk)). reflexivity.
    + intros i Hi. apply Abs.upd_other, Hi.
    + intros g Hg. apply in_or_app. right. exact Hg.
    + exact Hmt.
    + intros j Hj. exact (in_app_or _ _ _ Hj).
  - (* the pool loses m and gains the processed messages of the undone groups and the new messages *)
    unfold a'. cbn [Abs.pool]. rewrite ems_ent.
    apply (img_ext _ _ _ _ (img_app _ _ _ _ _ (img_remove1 m _ _ (pool_nodup a I) Hp) (img_app _ _ _ _ _ (img_map amsg (map snd gu)) (img_map amsg news)))).
    intros y. rewrite FL, Q10. change (Live (k_flags w3) (pend w3) y) with (Live (flag_set (k_flags w2) (wm_id m) 2) (pend w2) y). rewrite SL. apply or_assoc.
  - (* the messages the undone groups had sent are cancelled *)
    unfold a'. cbn [Abs.antis]. rewrite ids_ent. apply (img_ext _ _ _ _ (img_app _ _ _ _ _ Ha (img_map Pos.to_nat _))).
    intros j. rewrite FD, Q11. apply or_iff_compat_r.
    change (Dm (k_flags w3) (pend w3) ([m] ++ allprocs (k_lps w3)) j) with (Dm (flag_set (k_flags w2) (wm_id m) 2) (pend w2) (m :: allprocs (k_lps w2)) j). rewrite SD. split.
    + intros [[H _]|[_ [_ [H|H]]]]; [exact H|discriminate..].
    + intros H. left. split; [exact H|]. intros ->. exact (HnDm H).
  - unfold a'. cbn [Abs.nid]. rewrite map_length, W6. reflexivity.
Qed.

(* where the notice of the processed message m cuts the grouped history of its LP: at the start of m's group *)
Lemma anti_cut m x past g0 gs :
  lp_ok2 p x -> lp_base x -> lp_time x -> tyok m -> anti_index m (x_hist x) = Some past ->
  x_hist x = flat (g0 ++ gs) -> fst (base x) = length (flat g0) -> (g0 = [] \/ exists ms im, g0 = [(ms, im)]) ->
  exists gk mm g2, gs = gk ++ (mm, m) :: g2 /\ past = length (flat (g0 ++ gk)) /\ (forall o, In o (mm ++ flat_map fst g2) -> (tm m <= tm o)%N).
Proof.
  intros [Hlok Hlwf] Hbase Htime Hty Ea Ehist Ebase Hshape.
  pose proof (anti_ge_base p m x past Hlok Hbase Hty Ea) as Hbp.
  destruct (anti_index_spec m _ _ Ea) as (Hbnd & j & Hkj & Hnj & Hsent). pose proof (bnd_le _ _ Hbnd) as Hple.
  pose proof (undone_ge p (app_handle_time p) x past (tm m) (conj Hlok Hlwf) Hbnd Hbp Hple (anti_undone_ge _ _ _ (proj1 Htime) Ea)) as Hund.
  rewrite Ebase in Hbp. rewrite Ehist in Hbnd, Hple. destruct (flat_g0_cut g0 gs past Hshape Hbnd Hple Hbp) as (gk & gu & Egs & Ek).
  assert (Ex2 : x_hist x = flat (g0 ++ gk) ++ flat gu) by (rewrite Ehist, Egs, <- flat_app; f_equal; apply app_assoc).
  exists gk. destruct gu as [|[mm m'] g2].
  - exfalso. rewrite Ex2 in Hnj. change (flat []) with (@nil Worker.entry) in Hnj. rewrite app_nil_r in Hnj.
    assert (j < past) by (rewrite Ek; apply nth_error_Some; intro Hc; rewrite Hc in Hnj; discriminate Hnj). lia.
  - assert (E : m' = m).
    { rewrite Ex2, flat_cons in Hnj, Hsent. rewrite nth_error_app2 in Hnj by lia. rewrite <- Ek in Hnj.
      destruct (Nat.lt_trichotomy (j - past) (length mm)) as [Hlt|[Heq|Hgt]].
      - exfalso. rewrite nth_error_app1 in Hnj by (rewrite map_length; exact Hlt). apply nth_error_In, in_map_iff in Hnj. destruct Hnj as (z & Hz & _). discriminate.
      - rewrite nth_error_app2 in Hnj by (rewrite map_length; lia). rewrite map_length, Heq, Nat.sub_diag in Hnj. cbn in Hnj. injection Hnj as ->. reflexivity.
      - exfalso. destruct (Hsent (past + length mm) ltac:(lia)) as (z & Hz). rewrite nth_error_app2 in Hz by lia. rewrite <- Ek in Hz.
        replace (past + length mm - past) with (length mm) in Hz by lia. rewrite nth_error_app2 in Hz by (rewrite map_length; lia).
        rewrite map_length, Nat.sub_diag in Hz. cbn in Hz. discriminate. }
    subst m'. exists mm, g2. split; [exact Egs|]. split; [exact Ek|]. intros o Ho. apply Hund.
    rewrite Ex2, Ek, skipn_app, skipn_all, Nat.sub_diag. cbn [skipn app]. apply in_marks. rewrite marks_flat. exact Ho.
Qed.

(* the cancellation notice of a processed message: abstract step s_cancel *)
Lemma sim_cancel w2 a m : R (wq_insert w2 m) a -> fl (k_flags w2) m = 3%N ->
  let l := N.to_nat (e_dest (wm_ev m)) in
  let w3 := set_flags w2 (flag_set (k_flags w2) (wm_id m) 5) in
  forall past, anti_index m (x_hist (get_lp w3 l)) = Some past ->
  let w4 := do_rollback p w3 l past in
  let w' := put_lp w4 l (fix_bound (get_lp w4 l)) in
  full p w' -> exists a', astep a a' /\ R w' a'.
Proof.
  intros Hr Hfm l w3 past Ea w4 w' F'.
  destruct (in_hand w2 a m Hr) as (L & Hidp & Hdl & Hty & Hgm & Ok & Hxl & Htime & M0 & N5 & Hp & Ha & Hlen & I). fold l in Hdl, Hxl, Htime. unfold ge in Hgm.
  destruct (Loc_extract3 _ _ _ _ _ _ _ L Hfm) as [Hmpr HL3].
  destruct (hand_sets _ _ m 5 _ _ _ _ (allprocs (k_lps w2)) L M0 ltac:(discriminate) (fun x _ => iff_refl _)) as (SL & SD & M3).
  assert (Hl3 : l < length (k_lps w3)) by (unfold w3; cbn [set_flags k_lps]; rewrite Hlen; exact Hdl).
  assert (Hf3m : fl (k_flags w3) m = 5%N) by apply fl_set_same.
  assert (H5 : forall y, In y (allprocs (k_lps w2)) -> fl (k_flags w3) y = 5%N -> y = m).
  { intros y Hy F5. destruct (Pos.eq_dec (wm_id y) (wm_id m)) as [E|E]; [exact (Hidp y Hy E)|].
    unfold w3 in F5. cbn [set_flags k_flags] in F5. rewrite fl_set_other in F5 by exact E. destruct (N5 y Hy F5). }
  (* the grouped history of LP l: the cancelled message heads the first undone group *)
  destruct (r_hist _ _ Hr l Hdl) as (g0 & gdone & gs & Eh & Eb & Eah & Hghost & Hshape).
  pose proof (shape_g0 _ _ Hshape) as Hshape'.
  destruct (anti_cut m (get_lp w3 l) past g0 gs (get_ok2 p w3 l Ok Hl3) (proj1 Hxl) Htime Hty Ea Eh (f_equal fst Eb) Hshape') as (gk & mm & g2 & -> & -> & Hund).
  assert (Ehist2 : x_hist (get_lp w3 l) = flat ((g0 ++ gk) ++ (mm, m) :: g2)) by (rewrite <- app_assoc; exact Eh).
  assert (Hmt : forall o, In o (flat_map fst ((mm, m) :: g2)) -> (k_gvt w2 <= Z.of_N (tm o))%Z) by (intros o Ho; specialize (Hund o Ho); lia).
  assert (Hm2 : ~ In m (map snd g2)).
  { pose proof (group_nodup w3 l _ (l_nd_pr _ _ _ _ _ _ HL3) Hl3 Ehist2) as Hnd. rewrite !map_app in Hnd. apply NoDup_remove_2 in Hnd.
    intros H. apply Hnd, in_or_app. right. apply in_map, H. }
  assert (Hu5 : forall y, In y (map snd ((mm, m) :: g2)) -> (fl (k_flags w3) y = 5%N <-> y = m)).
  { intros y Hy. split; [|intros ->; exact Hf3m]. apply H5. apply in_map_iff in Hy. destruct Hy as (g & <- & Hg).
    apply (group_procs w3 l _ Hl3 Ehist2), in_or_app. right. exact Hg. }
  destruct (rollback_sets w3 l [] (g0 ++ gk) ((mm, m) :: g2) Ok Hl3 Ehist2) as (Q1 & Q3 & _ & Q10 & Q11 & Q12 & Q13); [|exact HL3|exact M3|exact Hmt|].
  { pose proof (f_equal fst Eb) as Eb1. cbn [fst] in Eb1. change (get_lp w3 l) with (get_lp (wq_insert w2 m) l). rewrite Eb1, flat_app, app_length. apply Nat.le_add_r. }
  destruct (do_rollback_same_gvt p w3 l (length (flat (g0 ++ gk)))) as ((Q7 & _) & _ & _ & Q6 & Q5 & Q2). cbn zeta in Q1, Q3, Q10, Q11, Q12, Q13.
  fold w4 in Q1, Q2, Q3, Q5, Q6, Q7, Q10, Q11, Q12, Q13.
  assert (Hl4 : l < length (k_lps w4)) by (rewrite Q5; exact Hl3).
  destruct (put_same_hist w4 l (fix_bound (get_lp w4 l)) Hl4 (fix_bound_hist _)) as [Epp Emm].
  assert (Eah' : Abs.hist cont a l = map ent (gdone ++ gk) ++ ent (mm, m) :: map ent g2) by (rewrite Eah, app_assoc, map_app; reflexivity).
  assert (Hdm : Abs.doomedb cont a (Abs.em cont (ent (mm, m))) = true) by (apply (doomed_iff _ a m Hr Hmpr); exact Hfm).
  pose proof (Abs.s_cancel cont cltb tltb lpstate n (AppAbs.s0 p) (ahandle p) a l (map ent (gdone ++ gk)) (ent (mm, m)) (map ent g2) Hdl Eah' Hdm) as Hstep.
  eexists. split; [exact Hstep|]. set (a' := {| Abs.hist := _; Abs.pool := _; Abs.antis := _; Abs.nid := _ |}).
  constructor.
  - exact F'.
  - unfold w'. rewrite put_lp_length, Q5. exact Hlen.
  - unfold w'. rewrite Emm. exact Q12.
  - unfold w'. rewrite Epp. intros y Hy. destruct (Q13 y Hy) as (Hy3 & Hng & F5). change (k_flags (put_lp w4 _ _)) with (k_flags w4). rewrite F5.
    intros E5. apply Hng. left. symmetry. exact (H5 y Hy3 E5).
  - eapply Bridge.rs; [exact (r_reach _ _ Hr)|exact Hstep].
  - apply (hist_step (wq_insert w2 m) a w' a' l g0 gdone (gk ++ (mm, m) :: g2) gk ((mm, m) :: g2) Hr Hdl Eah Hghost Hshape).
    + unfold w'. rewrite get_lp_set, fix_bound_hist by exact Hl4. exact Q1.
    + unfold w'. rewrite get_lp_set, fix_bound_base by exact Hl4. rewrite Q3. exact Eb.
    + intros i Hi. unfold w'. rewrite get_put_other by exact Hi. exact (Q2 i Hi).
    + exact Q7.
    + apply Abs.upd_same.
    + intros i Hi. apply Abs.upd_other, Hi.
    + intros g Hg. apply in_or_app. right. exact Hg.
    + exact Hmt.
    + intros j Hj. apply in_app_or in Hj. destruct Hj as [Hj|Hj]; [left; exact (remove_id_sub _ _ _ Hj)|right; exact Hj].
  - (* the pool gains the processed messages of the later groups *)
    unfold a'. cbn [Abs.pool]. rewrite ems_ent. apply (img_ext _ _ _ _ (img_app _ _ _ _ _ Hp (img_map amsg (map snd g2)))). intros y.
    change (Live (k_flags w4) (pend w4) y <-> Live (k_flags w2) (m :: pend w2) y \/ In y (map snd g2)). rewrite Q10.
    change (Live (k_flags w3) (pend w3) y) with (Live (flag_set (k_flags w2) (wm_id m) 5) (pend w2) y). rewrite SL. split.
    + intros [[H _]|[[<-|Hy] F5]]; [left; exact H|destruct (F5 Hf3m)|right; exact Hy].
    + intros [H|Hy]; [left; split; [exact H|]|right; split; [right; exact Hy|]].
      * intros E. destruct H as [Hy F]. rewrite (placed_id _ _ _ _ _ _ m L (or_introl eq_refl) y (in_or_app _ _ _ (or_introl Hy)) E), Hfm in F. destruct F; discriminate.
      * intros F5. apply Hm2. rewrite <- (proj1 (Hu5 y (or_intror Hy)) F5). exact Hy.
  - (* the identity of m leaves the cancelled set, those of the messages the undone groups had sent join it *)
    unfold a'. cbn [Abs.antis]. change (ent (mm, m) :: map ent g2) with (map ent ((mm, m) :: g2)). rewrite ids_ent. unfold w'. rewrite Epp.
    apply (img_ext _ _ _ _ (img_app _ _ _ _ _ (img_remove_id (wm_id m) _ _ (Abs.i_nd_antis cont n init0 a I) Ha) (img_map Pos.to_nat _))). intros j.
    change (Dm (k_flags w4) (pend w4) ([] ++ allprocs (k_lps w4)) j <->
            Dm (k_flags w2) (m :: pend w2) (allprocs (k_lps w2)) j /\ j <> wm_id m \/ In j (map wm_id (flat_map fst ((mm, m) :: g2)))).
    rewrite Q11. apply or_iff_compat_r. change (Dm (k_flags w3) (pend w3) ([] ++ allprocs (k_lps w3)) j) with (Dm (flag_set (k_flags w2) (wm_id m) 5) (pend w2) (allprocs (k_lps w2)) j).
    rewrite SD. split.
    + intros [[H|[E _]] C]; [exact H|]. destruct (C m (or_introl eq_refl) Hf3m E).
    + intros [H Hne]. split; [left; exact (conj H Hne)|]. intros y Hy F5. rewrite (proj1 (Hu5 y Hy) F5). exact Hne.
  - change (k_next w') with (k_next w4). rewrite Q6. exact (r_nid _ _ Hr).
Qed.

Lemma fossil_groups w l (g0 gs : list group) s0 :
  all_ok2 p w -> Forall lp_time (k_lps w) -> l < length (k_lps w) ->
  x_hist (get_lp w l) = flat (g0 ++ gs) -> base (get_lp w l) = (length (flat g0), s0) -> (g0 = [] \/ exists ms im, g0 = [(ms, im)]) ->
  k_err w = false -> k_err (fossil_lp w l) = false ->
  let x' := get_lp (fossil_lp w l) l in
  x' = get_lp w l \/
  exists gk gu, gs = gk ++ gu /\ x_hist x' = flat gu /\ base x' = (0, replay p s0 (flat gk)) /\ (forall g, In g (g0 ++ gk) -> (Z.of_N (tm (snd g)) < k_gvt w)%Z).
Proof.
  intros Hok Htime Hl Eh Eb Hshape He He'. unfold fossil_lp in *. set (x := get_lp w l) in *.
  destruct (get_ok2 p w l Hok Hl) as [Hlok Hlwf]. fold x in Hlok, Hlwf.
  destruct (newest_below (k_gvt w) (rev (x_hist x)) (length (x_hist x))) as [past|] eqn:En; [|left; reflexivity].
  destruct (drop_newer (x_logs x) (past + 1)) as [|[ref snap] older] eqn:Hd; [cbn in He'; discriminate|].
  right. cbn zeta. rewrite (get_lp_set w l _ Hl).
  destruct (log_cut p x _ ref snap older Hlok Hd) as (pre & E0 & _ & [Hrefge Hrefle] & Hsnap & _). rewrite Eb in Hrefge, Hsnap. cbn [fst snd] in Hrefge, Hsnap.
  assert (Hxt : lp_time x) by (rewrite Forall_forall in Htime; apply Htime, get_lp_in, Hl).
  pose proof (fossil_releases_below p ck (app_handle_time p) x (k_gvt w) past ref snap older (proj1 Hxt) En (proj1 (proj2 (proj1 (lp_ok_base p x) Hlok))) Hd) as Hrel.
  pose proof (proj2 Hlwf (ref, snap) ltac:(rewrite E0; apply in_or_app; right; left; reflexivity)) as Hbnd. cbn [fst] in Hbnd.
  rewrite Eh in Hbnd, Hrefle.
  destruct (flat_g0_cut g0 gs ref Hshape Hbnd Hrefle Hrefge) as (gk & gu & Egs & Ek).
  exists gk, gu. split; [exact Egs|]. cbn [x_hist]. split; [|split].
  - rewrite Eh, Egs, Ek, app_assoc. apply skipn_flat_app.
  - unfold base. cbn [x_logs]. rewrite (fossil_kept _ pre _ older E0), map_app. cbn [map]. rewrite last_last. cbn [fst snd]. rewrite Nat.sub_diag. f_equal.
    rewrite Hsnap. f_equal. unfold sub. rewrite Eh, Egs.
    assert (E1 : skipn (length (flat g0)) (flat (g0 ++ gk ++ gu)) = flat (gk ++ gu)) by apply skipn_flat_app. rewrite E1.
    replace (ref - length (flat g0)) with (length (flat gk)) by (rewrite Ek, flat_app, app_length; lia). apply firstn_flat_app.
  - intros g Hgg. apply Hrel. rewrite Eh, Egs, Ek, app_assoc, firstn_flat_app. apply in_procs. rewrite procs_flat. apply in_map. exact Hgg.
Qed.

(* fossil collection of one LP: no abstract step; the released groups become ghosts *)
Lemma fossil_sim w a l : R w a -> l < n ->
  let w' := fossil_lp w l in
  let wv := put_lp w' l (fix_bound (get_lp w' l)) in
  full p wv -> R wv a.
Proof.
  intros Hr Hl w' wv F'. pose proof Hr as [F Hlen M0 N5 Hre Hh Hp Ha Hn].
  pose proof (once_loc w F) as L. pose proof (once_loc wv F') as Lv.
  assert (Hlw : l < length (k_lps w)) by (rewrite Hlen; exact Hl).
  destruct (fossil_same_gvt w l) as ((F2 & _) & F3 & F4 & Fs & Fh & Fd & F6 & F10). fold w' in F6, F10.
  assert (Efl : k_flags wv = k_flags w) by exact F3.
  assert (Epd : pend wv = pend w) by (change (pend w' = pend w); unfold pend, w'; rewrite Fs, Fh, Fd; reflexivity).
  assert (Egv : k_gvt wv = k_gvt w) by exact F2.
  assert (Hl' : l < length (k_lps w')) by (rewrite F6; exact Hlw).
  assert (Hlenv : length (k_lps wv) = length (k_lps w)) by (unfold wv; rewrite put_lp_length; exact F6).
  destruct (Hh l Hl) as (g0 & gdone & gs & Ehist & Ebase & Eah & Hghost & Hshape).
  pose proof (shape_g0 _ _ Hshape) as Hshape'.
  pose proof (fossil_groups w l g0 gs (stofg l gdone) (f_ok p w F) (s_time w (f_good p w F)) Hlw Ehist Ebase Hshape' (f_err p w F) (f_err p wv F')) as Hfg.
  cbn zeta in Hfg. fold w' in Hfg.
  assert (Egetl : x_hist (get_lp wv l) = x_hist (get_lp w' l) /\ base (get_lp wv l) = base (get_lp w' l)).
  { unfold wv. rewrite (get_lp_set w' l _ Hl'). split; [apply fix_bound_hist|apply fix_bound_base]. }
  assert (Hget : forall i, i <> l -> get_lp wv i = get_lp w i) by (intros i Hi; unfold wv; rewrite (get_put_other w' l _ i Hi); apply F10; exact Hi).
  destruct (hist_sub w wv l Hlenv Hget) as [Hsubp Hsubm].
  { intros e He. rewrite (proj1 Egetl) in He. destruct Hfg as [E|(gk & gu & Egs & Eh' & _)]; [rewrite E in He; exact He|].
    rewrite Eh' in He. rewrite Ehist, Egs, app_assoc, flat_app. apply in_or_app. right. exact He. }
  constructor.
  - exact F'.
  - rewrite Hlenv. exact Hlen.
  - rewrite Efl, Epd. intros o Ho Hf. apply M0; [apply Hsubm; exact Ho|exact Hf].
  - rewrite Efl. intros y Hy. apply N5. apply Hsubp. exact Hy.
  - exact Hre.
  - intros i Hi. destruct (Nat.eq_dec i l) as [->|Hne]; [|rewrite (Hget i Hne), Egv; apply Hh; exact Hi].
    rewrite (proj1 Egetl), (proj2 Egetl), Egv. destruct Hfg as [E|(gk & gu & Egs & Eh' & Eb' & Hbel)]; [rewrite E; apply Hh; exact Hl|].
    exists [], (gdone ++ gk), gu. cbn [app]. split; [exact Eh'|]. split; [|split; [|split; [|right; reflexivity]]].
    + rewrite Eb'. change (flat []) with (@nil Worker.entry). cbn [length]. f_equal. apply stofg_app; [exact Hl|].
      intros g Hgg. apply (group_dest _ l _ _ (proj2 (f_extra p w F) l Hlw) Ehist). rewrite Egs. apply in_or_app. right. apply in_or_app. left. exact Hgg.
    + rewrite Eah, Egs, app_assoc. reflexivity.
    + (* a released message lies below the GVT, so it is not pending as its own cancellation notice: it is not cancelled *)
      intros g Hgg. apply in_app_or in Hgg. destruct Hgg as [Hgg|Hgg]; [apply Hghost; exact Hgg|].
      assert (Ht : (Z.of_N (tm (snd g)) < k_gvt w)%Z) by (apply Hbel; apply in_or_app; right; exact Hgg).
      split; [exact Ht|].
      assert (Hy : In (snd g) (allprocs (k_lps w))) by (apply (group_procs w l _ Hlw Ehist); rewrite Egs; apply in_or_app; right; apply in_or_app; left; exact Hgg).
      destruct (Abs.doomedb cont a (amsg (snd g))) eqn:Ed; [exfalso|reflexivity]. apply (doomed_iff w a (snd g) Hr Hy) in Ed.
      destruct (l_pr _ _ _ _ _ _ L _ Hy) as [[_ Hpd]|[[H2 _]|[H5 _]]]; [|congruence..].
      pose proof (s_pend w (f_good p w F) _ Hpd) as Hge. unfold ge in Hge. lia.
  - intros x0. rewrite Efl, Epd. apply Hp.
  - (* a cancelled processed message is pending as its notice, so it is still retained *)
    rewrite Efl, Epd in Lv.
    intros i. rewrite Ha, Efl, Epd. split; intros (j & (y & Ey & H) & ->); exists j; (split; [|reflexivity]); exists y; (split; [exact Ey|]).
    + destruct H as [H|[Hy Hf]]; [left; exact H|right]. split; [|exact Hf].
      destruct (l_pr _ _ _ _ _ _ L y Hy) as [[H3 Hpd]|[[H2 _]|[H5 _]]]; [|rewrite H2 in Hf; destruct Hf; discriminate|destruct (N5 y Hy H5)].
      destruct (l_pd _ _ _ _ _ _ Lv y Hpd) as [[_ H]|[[H0|H1] _]]; [exact H|rewrite H3 in H0; discriminate|rewrite H3 in H1; discriminate].
    + destruct H as [H|[Hy Hf]]; [left; exact H|right]. split; [apply Hsubp; exact Hy|exact Hf].
  - rewrite Hn. symmetry. f_equal. exact F4.
Qed.

Lemma fossil_insert w m l : fossil_lp (wq_insert w m) l = wq_insert (fossil_lp w l) m.
Proof.
  unfold fossil_lp. change (get_lp (wq_insert w m) l) with (get_lp w l). change (k_gvt (wq_insert w m)) with (k_gvt w).
  destruct (newest_below (k_gvt w) (rev (x_hist (get_lp w l))) (length (x_hist (get_lp w l)))) as [past|]; [|reflexivity].
  destruct (drop_newer (x_logs (get_lp w l)) (past + 1)) as [|[ref snap] older]; reflexivity.
Qed.

(* the extracted message put back after the (lazy) fossil collection of its LP: a state related to the same abstract state *)
Lemma lazy_sim w a w1 m : R w a -> wq_extract w = (Some m, w1) -> R (wq_insert (lazy_fossil_of w1 (N.to_nat (e_dest (wm_ev m)))) m) a.
Proof.
  intros Hr E. pose proof (r_full _ _ Hr) as F. pose proof (app_take_msg p ck w m w1 F E) as T. pose proof (taken_full p w m _ F T) as F2.
  set (l := N.to_nat (e_dest (wm_ev m))) in *. revert T F2. unfold lazy_fossil_of. destruct (Nat.eqb (x_epoch (get_lp w1 l)) (k_epoch w1)); intros T F2.
  - apply (R_moved w _ a Hr F2). destruct T as [_ _ _ _ _ (Eg & Ef & En) Hp _ _ _ _ _ _]. destruct (extract_same w) as (A & _). rewrite E in A.
    split; [exact Hp|]. split; [exact A|split; assumption].
  - assert (Ri : R (wq_insert w1 m) a).
    { pose proof (wq_extract_perm w) as Hp. destruct (extract_same w) as (A & Ef & En & _). pose proof (extract_good w (f_good p w F)) as G. rewrite E in *. cbn [snd] in *.
      assert (M : moved w (wq_insert w1 m)) by (split; [exact Hp|split; [exact A|split; assumption]]).
      apply (R_moved w _ a Hr); [|exact M]. apply (full_moved p w _ F M), (good_moved w _ (f_good p w F) M), G. }
    assert (Ewv : wq_insert (put_lp (fossil_lp w1 l) l (fix_bound (get_lp (fossil_lp w1 l) l))) m =
                  put_lp (fossil_lp (wq_insert w1 m) l) l (fix_bound (get_lp (fossil_lp (wq_insert w1 m) l) l))) by (rewrite fossil_insert; reflexivity).
    rewrite Ewv in F2 |- *. apply (fossil_sim _ a l Ri); [|exact F2]. rewrite <- (r_len _ _ Hr), <- (t_len _ _ _ _ T). exact (t_l _ _ _ _ T).
Qed.

Lemma process_msg_sim w a : R w a -> exists a', (a' = a \/ astep a a') /\ R (process_msg p ck w) a'.
Proof.
  intros Hr. pose proof (r_full _ _ Hr) as F.
  destruct (app_process_msg_full p ck Htypes w F ltac:(rewrite (r_len _ _ Hr); reflexivity)) as [F' _].
  destruct (wq_extract w) as [[m|] w1] eqn:E.
  2:{ exists a. split; [left; reflexivity|]. revert F'. unfold process_msg. rewrite E, (extract_none w w1 E). intros F'. exact (R_moved w _ a Hr F' (transfer_moved w)). }
  pose proof (lazy_sim w a w1 m Hr E) as Rv. pose proof (app_take_msg p ck w m w1 F E) as T.
  set (l := N.to_nat (e_dest (wm_ev m))) in *. set (w2 := lazy_fossil_of w1 l) in *.
  destruct (l_pd _ _ _ _ _ _ (t_loc _ _ _ _ T) m (or_introl eq_refl)) as [[Hf Hin]|[[Hf|Hf] Hnin]].
  - (* the notice of a processed message *)
    rewrite (process_msg_flag3 p ck w m w1 E Hf) in F' |- *. cbn zeta in *. fold l w2 in F' |- *.
    destruct (cancel_index p w m w2 T Hf) as (past & Ea & _). fold l in Ea. change (get_lp (set_flags w2 _) l) with (get_lp w2 l) in F' |- *. rewrite Ea in F' |- *.
    destruct (sim_cancel w2 a m Rv Hf past Ea F') as (a' & Hs & Hr'). exists a'. split; [right; exact Hs|exact Hr'].
  - (* an ordinary message *)
    rewrite (process_msg_flag0 p ck w m w1 E Hf) in F' |- *. cbn zeta in *. fold l w2 in F' |- *.
    destruct (sim_process w2 a m Rv Hf F') as (a' & Hs & Hr'). exists a'. split; [right; exact Hs|exact Hr'].
  - (* cancelled while pending *)
    rewrite (process_msg_flag1 p ck w m w1 E Hf) in F' |- *. cbn zeta in *. fold l w2 in F' |- *.
    destruct (sim_drop w2 a m Rv Hf F') as (a' & Hs & Hr'). exists a'. split; [right; exact Hs|exact Hr'].
Qed.

Definition ini2 (w : worker) : Prop :=
  k_epoch w = 0 /\ (forall y, In y (pend w) -> fl (k_flags w) y = 0%N) /\ (forall y, In y (allprocs (k_lps w)) -> fl (k_flags w) y = 2%N) /\
  (forall y, In y (allmarks (k_lps w)) -> In y (pend w)) /\
  (forall l, l < length (k_lps w) -> exists ms im, x_hist (get_lp w l) = flat [(ms, im)] /\ is_init im /\
                                                 base (get_lp w l) = (S (length ms), AppAbs.s0 p l) /\ x_epoch (get_lp w l) = 0).

Lemma init_lp_ini2 w : ini w -> ini2 w -> ini2 (init_lp p w (length (k_lps w))).
Proof.
  intros (HL & _ & _ & _) (E0 & P0 & P2 & PM & PH). set (l := length (k_lps w)). rewrite init_lp_eq. cbn zeta.
  set (news := news_from _ (snd (lp_init p (N.of_nat l)))). set (im := mkWm (k_next w) (mkEv (N.of_nat l) 0 LP_INIT_TYPE [])).
  set (x' := mkLpx _ _ _ _ _ _). set (w0 := mkWk _ _ _ _ _ _ _ _ _ _).
  assert (Hnew : forall z, In z news -> (Pos.succ (k_next w) <= wm_id z)%positive) by (intros z; apply news_ids_ge).
  assert (Hold : forall y, In y (pend w ++ ([] ++ allprocs (k_lps w)) ++ allmarks (k_lps w)) -> fl (k_flags (sent_state w0 news)) y = fl (k_flags w) y).
  { intros y Hy. pose proof (l_lt _ _ _ _ _ _ HL y Hy) as Hlt. unfold sent_state. cbn [k_flags]. rewrite news_flags.
    - apply fl_set_other. intro E. rewrite E in Hlt. exact (Pos.lt_irrefl _ Hlt).
    - intros z Hz E. apply Hnew in Hz. rewrite E in Hz. exact (Pos.lt_irrefl _ (Pos.lt_le_trans _ _ _ (Pos.lt_trans _ _ _ Hlt (Pos.lt_succ_diag_r _)) Hz)). }
  assert (Him : fl (k_flags (sent_state w0 news)) im = 2%N).
  { unfold sent_state. cbn [k_flags]. rewrite news_flags; [apply (fl_set_same (k_flags w) im 2)|].
    intros z Hz E. apply Hnew in Hz. rewrite E in Hz. exact (Pos.lt_irrefl _ (Pos.lt_le_trans _ _ _ (Pos.lt_succ_diag_r _) Hz)). }
  assert (Epr : allprocs (k_lps w ++ [x']) = allprocs (k_lps w) ++ [im]).
  { unfold allprocs. rewrite flat_map_app. cbn [flat_map x_hist x']. rewrite procs_app, procs_map_sent, app_nil_r. reflexivity. }
  assert (Emk : allmarks (k_lps w ++ [x']) = allmarks (k_lps w) ++ news).
  { unfold allmarks. rewrite flat_map_app. cbn [flat_map x_hist x']. rewrite marks_app, marks_map_sent, !app_nil_r. reflexivity. }
  unfold ini2. cbn [set_lps k_epoch k_flags k_lps]. change (pend (set_lps _ _)) with (pend (sent_state w0 news)). rewrite pend_sent, Epr, Emk.
  split; [exact E0|]. split; [|split; [|split]].
  - intros y Hy. apply in_app_or in Hy. destruct Hy as [Hy|Hy]; [apply news_flags_new, in_rev, Hy|]. rewrite Hold by (rewrite !in_app_iff; tauto). apply P0, Hy.
  - intros y Hy. apply in_app_or in Hy. destruct Hy as [Hy|[<-|[]]]; [|exact Him]. rewrite Hold by (cbn [app]; rewrite !in_app_iff; tauto). apply P2, Hy.
  - intros y Hy. apply in_or_app. apply in_app_or in Hy. destruct Hy as [Hy|Hy]; [right; apply PM, Hy|left; apply -> in_rev; exact Hy].
  - rewrite app_length. cbn [length]. fold l. intros i Hi. unfold get_lp. cbn [set_lps k_lps].
    destruct (Nat.lt_ge_cases i l) as [Hlt|Hge]; [rewrite app_nth1 by exact Hlt; apply PH, Hlt|].
    assert (i = l) by lia. subst i. rewrite app_nth2, Nat.sub_diag by (fold l; lia). cbn [nth].
    exists news, im. cbn [x_hist x_epoch x']. split; [unfold flat; cbn [flat_map]; rewrite app_nil_r; reflexivity|]. split; [reflexivity|]. split; [|reflexivity].
    unfold base, x'. cbn [x_logs last]. rewrite app_length, map_length. cbn [length]. f_equal. lia.
Qed.

Lemma w_init_ini2 : ini2 (w_init p).
Proof.
  apply (w_init_keeps p (fun w => ini w /\ ini2 w)).
  - split; [split; [apply Loc_empty|split; [split; [intros m []|intros l Hl; cbn in Hl; lia]|split; reflexivity]]|].
    split; [reflexivity|]. split; [intros y []|]. split; [intros y []|]. split; [intros y []|intros l Hl; cbn in Hl; lia].
  - intros w [Hw Hw2]. split; [exact (init_lp_ini p (fun me e => app_init p me e Htypes) w Hw)|apply init_lp_ini2; assumption].
Qed.

Lemma R_init : R (w_init p) (Bridge.a0 cont init0 N0).
Proof.
  pose proof full_init as F. pose proof (w_init_length p) as Hlen. destruct w_init_ini2 as (E0 & P0 & P2 & PM & PH).
  constructor; cbn [Bridge.a0 Abs.hist Abs.pool Abs.antis Abs.nid].
  - exact F.
  - exact Hlen.
  - intros o Ho _. apply PM. exact Ho.
  - intros y Hy. rewrite (P2 y Hy). discriminate.
  - apply Bridge.r0.
  - intros l Hl. destruct (PH l ltac:(rewrite Hlen; exact Hl)) as (ms & im & E1 & E2 & E3 & _). exists [(ms, im)], [], []. split; [exact E1|]. split; [|split; [reflexivity|split; [intros g []|left; exists ms, im; repeat split; assumption]]].
    rewrite E3. unfold flat. cbn [flat_map app]. rewrite app_nil_r. unfold flat1. rewrite app_length, map_length. cbn [length fst snd]. f_equal. lia.
  - intros x0. unfold init0. rewrite in_map_iff. split.
    + intros (y & <- & Hy). exists y. split; [split; [exact Hy|left; apply P0; exact Hy]|reflexivity].
    + intros (y & [Hy _] & ->). exists y. split; [reflexivity|exact Hy].
  - intros i. split; [intros []|]. intros (j & (y & _ & H) & _). destruct H as [[Hy Hf]|[Hy Hf]]; [rewrite (P0 y Hy) in Hf; discriminate|rewrite (P2 y Hy) in Hf; destruct Hf; discriminate].
  - reflexivity.
Qed.

Lemma transfer_sim w a : R w a -> R (wq_transfer w) a.
Proof. intros Hr. exact (R_moved w _ a Hr (transfer_full p w (r_full _ _ Hr)) (transfer_moved w)). Qed.

(* a GVT announcement: no abstract step; the new value is at or above the old one, so released messages stay below it *)
Lemma announce_sim d w a : R w a -> R (announce d w) a.
Proof using p ck.
  intros Hr. pose proof (announce_full p d w (r_full _ _ Hr)) as Fa.
  pose proof (transfer_sim w a Hr) as Hr1. revert Fa. unfold announce, wq_peek. set (w1 := wq_transfer w) in *.
  destruct (min_held (k_held w1) (match k_heap w1 with [] => None | m :: _ => Some (e_t (wm_ev m)) end)) as [t|]; [|intros _; exact Hr1].
  destruct (Z.ltb_spec (Z.of_N t - Z.of_N d) (k_lastgvt w1)) as [Hlt|Hge]; cbn [orb]; [intros _; exact Hr1|].
  destruct (Z.leb (Z.of_N t - Z.of_N d) 0); [intros _; exact Hr1|].
  intros Fa. destruct Hr1 as [F1 Hlen M0 N5 Hre Hh Hp Ha Hn]. constructor; try assumption.
  intros l Hl. destruct (Hh l Hl) as (g0 & gdone & gs & E1 & E2 & E3 & E4 & E5). exists g0, gdone, gs. split; [exact E1|]. split; [exact E2|]. split; [exact E3|]. split; [|exact E5].
  intros g Hgg. destruct (E4 g Hgg) as [H1 H2]. split; [|exact H2]. cbn [k_gvt]. pose proof (f_gvt p w1 F1). lia.
Qed.

Theorem worker_refines_abstract (ops : list wop) : exists a, R (fold_left (wstep p ck) ops (w_init p)) a.
Proof.
  apply (script_keeps p ck (fun w => exists a, R w a)).
  - intros w (a & Hr). destruct (process_msg_sim w a Hr) as (a1 & _ & Hr1). exists a1. exact Hr1.
  - intros w (a & Hr). exists a. apply transfer_sim, Hr.
  - intros w m w1 (a & Hr) E. exists a. exact (R_moved w _ a Hr (hold_step_full p w m w1 (r_full _ _ Hr) E) (hold_step_moved w m w1 E)).
  - intros i w (a & Hr). exists a. exact (R_moved w _ a Hr (unhold_full p i w (r_full _ _ Hr)) (unhold_moved i w)).
  - intros w (a & Hr). exists a. exact (R_moved w _ a Hr (unhold_all_full p w (r_full _ _ Hr)) (unhold_all_moved w)).
  - intros d w (a & Hr). exists a. apply announce_sim, Hr.
  - eexists. exact R_init.
Qed.

Definition evc (y : wmsg) : cont := cont_of (wm_ev y).
Definition retained (w : worker) (l : nat) : list wmsg :=
  filter (fun y => negb (N.eqb (e_type (wm_ev y)) LP_INIT_TYPE)) (procs_of (x_hist (get_lp w l))).

Lemma retained_groups w l (g0 gs : list group) : x_hist (get_lp w l) = flat (g0 ++ gs) -> fst (base (get_lp w l)) = length (flat g0) ->
  lp_extra (length (k_lps w)) l (get_lp w l) -> ((exists ms im, g0 = [(ms, im)] /\ is_init im) \/ g0 = []) -> retained w l = map snd gs.
Proof.
  intros Eh Eb (_ & Hty & _) Hshape. unfold retained. rewrite Eh, procs_flat, map_app, filter_app.
  assert (E0 : filter (fun y => negb (N.eqb (e_type (wm_ev y)) LP_INIT_TYPE)) (map snd g0) = []).
  { destruct Hshape as [(ms & im & -> & Hi)| ->]; [|reflexivity]. cbn [map filter snd]. unfold is_init in Hi. rewrite Hi, N.eqb_refl. reflexivity. }
  rewrite E0. cbn [app].
  assert (Hall : forall y, In y (map snd gs) -> negb (N.eqb (e_type (wm_ev y)) LP_INIT_TYPE) = true).
  { intros y Hy. assert (Ht : tyok y).
    { apply Hty. rewrite Eb, Eh. assert (E1 : skipn (length (flat g0)) (flat (g0 ++ gs)) = flat gs) by apply skipn_flat_app. rewrite E1. apply in_procs. rewrite procs_flat. exact Hy. }
    unfold tyok in Ht. apply negb_true_iff. apply N.eqb_neq. lia. }
  induction (map snd gs) as [|y r IH]; [reflexivity|]. cbn [filter]. rewrite (Hall y (or_introl eq_refl)). f_equal. apply IH. intros z Hz. apply Hall. right. exact Hz.
Qed.

Lemma hist_beyond a : areach a -> forall k, n <= k -> Abs.hist cont a k = [].
Proof.
  intros R0. induction R0 as [|a0 a1 R0 IH S]; intros k Hk; [reflexivity|].
  destruct S; cbn [Abs.hist]; try (apply IH; exact Hk); unfold Abs.upd; destruct (Nat.eqb_spec k l); try lia; apply IH; exact Hk.
Qed.
Lemma init0_dest x : In x init0 -> Abs.mdest cont x < n.
Proof.
  intros Hx. unfold init0 in Hx. apply in_map_iff in Hx. destruct Hx as (y & <- & Hy). cbn [amsg Abs.mdest].
  destruct (proj1 (f_extra p _ full_init) y Hy) as [_ Hd]. rewrite (w_init_length p) in Hd. exact Hd.
Qed.

(* a bound under which nothing is pending is a valid bound of the related abstract state, so the abstract theorem applies *)
Lemma R_sequential w a (below : cont -> bool) : R w a ->
  (forall c1 c2, ~ Abs.tlt cont tltb c2 c1 -> below c2 = true -> below c1 = true) ->
  (forall y, In y (pend w) -> below (evc y) = false) ->
  forall tr, Peel.seqrun cont (Abs.clt cont cltb) lpstate (Bridge.handle_g cont lpstate (ahandle p) below) (AppAbs.s0 p) (Bridge.Pg cont init0 below) tr ->
  forall l, l < n -> Peel.proj cont l tr = Bridge.Hg cont below a l.
Proof.
  intros Hr Hb Hpend tr Hrun l Hl. pose proof Hr as [F Hlen M0 N5 Hre Hh Hp Ha _].
  assert (G : Bridge.gvt_ok cont below a).
  { constructor.
    - intros x0 Hx. apply Hp in Hx. destruct Hx as (y & [Hy _] & ->). unfold Bridge.belowm. cbn [amsg Abs.mc]. apply Hpend. exact Hy.
    - intros l0 e He Hd. destruct (Nat.lt_ge_cases l0 n) as [Hl0|Hl0]; [|rewrite (hist_beyond a Hre l0 Hl0) in He; destruct He].
      destruct (Hh l0 Hl0) as (g0 & gdone & gs & E1 & _ & E4 & Hghost & _). rewrite E4 in He. apply in_map_iff in He. destruct He as (g & <- & Hgg).
      cbn [ent Abs.em snd] in Hd. apply in_app_or in Hgg. destruct Hgg as [Hgg|Hgg]; [destruct (Hghost g Hgg) as [_ Hnd]; congruence|].
      assert (Hpr : In (snd g) (allprocs (k_lps w))) by (apply (group_procs w l0 _ ltac:(rewrite Hlen; exact Hl0) E1), in_or_app; right; exact Hgg).
      apply (doomed_iff w a (snd g) Hr Hpr) in Hd.
      destruct (l_pr _ _ _ _ _ _ (once_loc w F) (snd g) Hpr) as [[_ Hin]|[[H2 _]|[H5 _]]]; [|congruence|congruence].
      unfold Bridge.belowe, Abs.con. cbn [ent Abs.em snd amsg Abs.mc]. apply Hpend. exact Hin. }
  exact (Bridge.time_warp_below_gvt_is_sequential cont cltb clt_irrefl clt_trans clt_total tltb tlt_clt clt_not_tlt tlt_negtrans lpstate n (AppAbs.s0 p) (ahandle p)
             (avalid p Hvalid) init0 init0_dest below Hb init0_nodup N0 a init0_lt Hre G tr Hrun l Hl).
Qed.

Theorem worker_below_bound_is_sequential (ops : list wop) (below : cont -> bool) :
  (forall c1 c2, ~ Abs.tlt cont tltb c2 c1 -> below c2 = true -> below c1 = true) ->
  let w := fold_left (wstep p ck) ops (w_init p) in
  (forall y, In y (pend w) -> below (evc y) = false) ->
  forall tr, Peel.seqrun cont (Abs.clt cont cltb) lpstate (Bridge.handle_g cont lpstate (ahandle p) below) (AppAbs.s0 p) (Bridge.Pg cont init0 below) tr ->
  forall l, l < n -> exists released, (forall y, In y released -> (Z.of_N (tm y) < k_gvt w)%Z) /\
    Peel.proj cont l tr = map evc (filter (fun y => below (evc y)) (released ++ retained w l)).
Proof.
  intros Hb w Hpend tr Hrun l Hl. destruct (worker_refines_abstract ops) as (a & Hr). fold w in Hr.
  rewrite (R_sequential w a below Hr Hb Hpend tr Hrun l Hl). pose proof Hr as [F Hlen _ _ _ Hh _ _ _].
  unfold Bridge.Hg. destruct (Hh l Hl) as (g0 & gdone & gs & E1 & E2 & E4 & Hghost & Hshape). rewrite E4.
  exists (map snd gdone). split.
  { intros y Hy. apply in_map_iff in Hy. destruct Hy as (g & <- & Hgg). apply (Hghost g Hgg). }
  assert (Hlw : l < length (k_lps w)) by (rewrite Hlen; exact Hl).
  rewrite (retained_groups w l g0 gs E1 ltac:(rewrite E2; reflexivity) (proj2 (f_extra p w F) l Hlw)
             ltac:(destruct Hshape as [(ms & im & E & Hi & _)|E]; [left; exists ms, im; split; assumption|right; exact E])).
  rewrite <- map_app.
  clear. induction (gdone ++ gs) as [|g r IH]; [reflexivity|]. cbn [map filter]. change (Bridge.belowe cont below (ent g)) with (below (evc (snd g))).
  destruct (below (evc (snd g))); cbn [map]; [change (Abs.con cont (ent g)) with (evc (snd g)); f_equal; exact IH|exact IH].
Qed.

(* without a GVT above 0 nothing has been released: the retained history itself is the sequential one *)
Corollary worker_below_bound_gvt0 (ops : list wop) (below : cont -> bool) :
  (forall c1 c2, ~ Abs.tlt cont tltb c2 c1 -> below c2 = true -> below c1 = true) ->
  let w := fold_left (wstep p ck) ops (w_init p) in
  (k_gvt w <= 0)%Z -> (forall y, In y (pend w) -> below (evc y) = false) ->
  forall tr, Peel.seqrun cont (Abs.clt cont cltb) lpstate (Bridge.handle_g cont lpstate (ahandle p) below) (AppAbs.s0 p) (Bridge.Pg cont init0 below) tr ->
  forall l, l < n -> Peel.proj cont l tr = map evc (filter (fun y => below (evc y)) (retained w l)).
Proof.
  intros Hb w Hg Hpend tr Hrun l Hl. destruct (worker_below_bound_is_sequential ops below Hb Hpend tr Hrun l Hl) as (rel & Hrel & E).
  fold w in Hrel, E. destruct rel as [|y r]; [exact E|]. specialize (Hrel y (or_introl eq_refl)). lia.
Qed.

(* at quiescence (nothing pending anywhere) every LP has processed exactly its sequential dispatch sequence, in that order:
   what fossil collection has released, followed by what is retained *)
Corollary worker_quiescent_is_sequential (ops : list wop) :
  let w := fold_left (wstep p ck) ops (w_init p) in
  pend w = [] ->
  forall tr, Peel.seqrun cont (Abs.clt cont cltb) lpstate (Bridge.handle_g cont lpstate (ahandle p) (fun _ => true)) (AppAbs.s0 p) (Bridge.Pg cont init0 (fun _ => true)) tr ->
  forall l, l < n -> exists released, (forall y, In y released -> (Z.of_N (tm y) < k_gvt w)%Z) /\ Peel.proj cont l tr = map evc (released ++ retained w l).
Proof.
  intros w Hq tr Hrun l Hl.
  destruct (worker_below_bound_is_sequential ops (fun _ => true) (fun _ _ _ _ => eq_refl) ltac:(fold w; rewrite Hq; intros y []) tr Hrun l Hl) as (rel & Hrel & E).
  fold w in Hrel, E. exists rel. split; [exact Hrel|]. rewrite E. f_equal. clear. induction (rel ++ retained w l) as [|y r IH]; [reflexivity|]. cbn [filter]. rewrite IH. reflexivity.
Qed.

Lemma R_state w a l : R w a -> l < n -> x_st (get_lp w l) = Abs.stof cont lpstate (AppAbs.s0 p) (ahandle p) l (Abs.hist cont a l).
Proof.
  intros Hr Hl. pose proof Hr as [F Hlen _ _ _ Hh _ _ _].
  assert (Hlw : l < length (k_lps w)) by (rewrite Hlen; exact Hl).
  destruct (Hh l Hl) as (g0 & gdone & gs & Ehist & Ebase & Eah & _ & _).
  destruct (get_ok2 p w l (f_ok p w F) Hlw) as [Hlok _]. apply lp_ok_base in Hlok. destruct Hlok as (_ & _ & _ & Hst). rewrite Ebase in Hst. cbn [fst snd] in Hst.
  rewrite Hst, Ehist, skipn_flat_app, Eah. apply stofg_app; [exact Hl|].
  intros g Hgg. apply (group_dest _ l _ _ (proj2 (f_extra p w F) l Hlw) Ehist), in_or_app. right. exact Hgg.
Qed.

(* C05 across the whole run: after every script every LP's state is the handlers folded over the history the related abstract state
   records for it (what fossil collection released followed by what is retained) -- whatever rollbacks, restores and silent
   re-executions happened on the way *)
Theorem worker_state_is_fold_of_history (ops : list wop) :
  let w := fold_left (wstep p ck) ops (w_init p) in
  exists a, R w a /\ forall l, l < n -> x_st (get_lp w l) = Abs.stof cont lpstate (AppAbs.s0 p) (ahandle p) l (Abs.hist cont a l).
Proof.
  intros w. destruct (worker_refines_abstract ops) as (a & Hr). fold w in Hr. exists a. split; [exact Hr|]. intros l Hl. apply R_state; assumption.
Qed.

(* C01 on states: at quiescence every LP's state is the state the sequential execution leaves it in *)
Theorem worker_quiescent_state_is_sequential (ops : list wop) :
  let w := fold_left (wstep p ck) ops (w_init p) in
  pend w = [] ->
  forall tr, Peel.seqrun cont (Abs.clt cont cltb) lpstate (Bridge.handle_g cont lpstate (ahandle p) (fun _ => true)) (AppAbs.s0 p) (Bridge.Pg cont init0 (fun _ => true)) tr ->
  forall l, l < n -> x_st (get_lp w l) = fold_left (fun s c => fst (ahandle p l s c)) (Peel.proj cont l tr) (AppAbs.s0 p l).
Proof.
  intros w Hq tr Hrun l Hl. destruct (worker_refines_abstract ops) as (a & Hr). fold w in Hr.
  rewrite (R_sequential w a (fun _ => true) Hr (fun _ _ _ _ => eq_refl) ltac:(rewrite Hq; intros y []) tr Hrun l Hl), (R_state w a l Hr Hl).
  unfold Bridge.Hg, Abs.stof.
  assert (Ef : filter (Bridge.belowe cont (fun _ => true)) (Abs.hist cont a l) = Abs.hist cont a l).
  { induction (Abs.hist cont a l) as [|e r IH]; [reflexivity|]. cbn [filter]. unfold Bridge.belowe at 1. rewrite IH. reflexivity. }
  rewrite Ef. clear. generalize (AppAbs.s0 p l). induction (Abs.hist cont a l) as [|e r IH]; intros st; [reflexivity|]. cbn [map fold_left]. apply IH.
Qed.

(* C03 at process.c level: for every bound g at or below the worker's GVT, what fossil collection has released followed by the retained
   entries below g is exactly the LP's part of the sequential execution below g; at g = GVT nothing released is filtered away *)
Theorem worker_committed_is_sequential (ops : list wop) (g : N) :
  let w := fold_left (wstep p ck) ops (w_init p) in
  (Z.of_N g <= k_gvt w)%Z ->
  forall tr, Peel.seqrun cont (Abs.clt cont cltb) lpstate (Bridge.handle_g cont lpstate (ahandle p) (below_ts g)) (AppAbs.s0 p) (Bridge.Pg cont init0 (below_ts g)) tr ->
  forall l, l < n -> exists released, (forall y, In y released -> (Z.of_N (tm y) < k_gvt w)%Z) /\
    Peel.proj cont l tr = map evc (filter (fun y => below_ts g (evc y)) (released ++ retained w l)) /\
    (Z.of_N g = k_gvt w -> Peel.proj cont l tr = map evc released ++ map evc (filter (fun y => below_ts g (evc y)) (retained w l))).
Proof.
  intros w Hg tr Hrun l Hl.
  destruct (worker_refines_abstract ops) as (a & Hr). fold w in Hr.
  assert (Hpend : forall y, In y (pend w) -> below_ts g (evc y) = false).
  { intros y Hy. pose proof (s_pend w (f_good p w (r_full _ _ Hr)) y Hy) as Hge. unfold ge in Hge. unfold below_ts, evc, cont_of, c_t. cbn [fst]. apply N.ltb_ge. unfold tm in Hge. lia. }
  destruct (worker_below_bound_is_sequential ops (below_ts g) (below_ts_down g) Hpend tr Hrun l Hl) as (rel & Hrel & E). fold w in Hrel, E.
  exists rel. split; [exact Hrel|]. split; [exact E|]. intros Eg. rewrite E, filter_app, map_app. f_equal. f_equal.
  assert (Hall : forall y, In y rel -> below_ts g (evc y) = true).
  { intros y Hy. specialize (Hrel y Hy). unfold below_ts, evc, cont_of, c_t. cbn [fst]. apply N.ltb_lt. unfold tm in Hrel. lia. }
  clear -Hall. induction rel as [|y r IH]; [reflexivity|]. cbn [filter]. rewrite (Hall y (or_introl eq_refl)). f_equal. apply IH. intros z Hz. apply Hall. right. exact Hz.
Qed.
End Sim.
