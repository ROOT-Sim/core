(* The reference executor processes a minimal pending event at every step and keeps the pending
   multiset exact: it is a textbook event-list executor (C10 specification side). *)
From Coq Require Import NArith ZArith List Bool Lia Permutation.
From RS Require Import Base.Lex Order.MsgOrderDefs Order.MsgOrderProofs TW.App TW.Seq.
Import ListNotations.

Lemma wf_msg_of e : wf_msg (msg_of e).
Proof. unfold wf_msg, msg_of. cbn. rewrite Nat2Z.id, map_length. lia. Qed.

Lemma evb_irrefl a : ev_before a a = false.
Proof. apply before_irrefl_l, wf_msg_of. Qed.
Lemma evb_trans a b c : ev_before a b = true -> ev_before b c = true -> ev_before a c = true.
Proof. apply before_trans_l; apply wf_msg_of. Qed.
Lemma evb_negtrans a b c : ev_before a b = false -> ev_before b c = false -> ev_before a c = false.
Proof. unfold ev_before. rewrite !before_is_lex by apply wf_msg_of. apply lexltb_negtrans. Qed.

Inductive sorted : list event -> Prop :=
| sorted_nil : sorted []
| sorted_cons : forall x l, (forall y, In y l -> ev_before y x = false) -> sorted l -> sorted (x :: l).

Lemma insert_perm e l : Permutation (insert_ev e l) (e :: l).
Proof.
  induction l as [|x l IH]; cbn; [reflexivity|].
  destruct (ev_before e x); [reflexivity|].
  eapply perm_trans; [apply perm_skip; exact IH|apply perm_swap].
Qed.

Lemma insert_sorted e l : sorted l -> sorted (insert_ev e l).
Proof.
  induction l as [|x l IH]; intros Hs; cbn.
  - constructor; [intros y []|constructor].
  - inversion Hs as [|? ? Hx Hl]; subst.
    destruct (ev_before e x) eqn:E.
    + constructor; [|exact Hs]. intros y [<-|Hy].
      * destruct (ev_before x e) eqn:E2; [|reflexivity].
        pose proof (evb_trans _ _ _ E E2) as Hc. rewrite evb_irrefl in Hc. discriminate.
      * destruct (ev_before y e) eqn:E2; [|reflexivity].
        rewrite <- (Hx y Hy). symmetry. apply (evb_trans _ _ _ E2 E).
    + constructor; [|apply IH; exact Hl].
      intros y Hy. apply (Permutation_in _ (insert_perm e l)) in Hy. destruct Hy as [<-|Hy]; [exact E|auto].
Qed.

Lemma inserts_sorted es : forall l, sorted l -> sorted (fold_left (fun q x => insert_ev x q) es l).
Proof. induction es as [|e es IH]; intros l Hl; cbn; [exact Hl|]. apply IH, insert_sorted, Hl. Qed.

Lemma inserts_perm es : forall l, Permutation (fold_left (fun q x => insert_ev x q) es l) (es ++ l).
Proof.
  induction es as [|e es IH]; intros l; cbn; [reflexivity|].
  eapply perm_trans; [apply IH|]. eapply perm_trans; [apply Permutation_app_head, insert_perm|].
  apply Permutation_sym, Permutation_middle.
Qed.

(* one step of the reference executor: the dispatched event is minimal among all pending events,
   it is removed exactly once, its outputs are added exactly once, and only its LP's state changes *)
Theorem seq_step_spec p tend stop s s' : sorted (q_pending s) -> seq_step p tend stop s = Some s' ->
  exists e rest,
    q_pending s = e :: rest /\
    (forall y, In y (q_pending s) -> ev_before y e = false) /\
    q_log s' = e :: q_log s /\
    sorted (q_pending s') /\
    let i := N.to_nat (e_dest e) in
    let st := nth i (q_lps s) dummy_lp in
    Permutation (q_pending s') (snd (handle p e st) ++ rest) /\
    q_lps s' = set_lp (q_lps s) i (fst (handle p e st)).
Proof.
  intros Hs H.
  (* a step under a termination time is a step without one *)
  assert (H0 : seq_step p None stop s = Some s').
  { revert H. unfold seq_step. destruct (q_pending s); [discriminate|]. destruct (stop && _); [discriminate|].
    destruct tend as [te|]; [destruct (te <=? _)%N; [discriminate|]|]; auto. }
  clear H. unfold seq_step in H0. destruct (q_pending s) as [|e rest] eqn:Ep; [discriminate|].
  destruct (stop && forallb (fun b => b) (q_done s)); [discriminate|].
  inversion Hs as [|? ? Hx Hl]; subst. cbn zeta in H0 |- *.
  destruct (handle p e (nth (N.to_nat (e_dest e)) (q_lps s) dummy_lp)) as [st' outs] eqn:Eh.
  injection H0 as <-. exists e, rest. rewrite Eh. cbn [q_log q_pending q_lps fst snd]. repeat split.
  - intros y [<-|Hy]; [apply evb_irrefl|auto].
  - apply inserts_sorted, Hl.
  - apply inserts_perm.
Qed.

Lemma init_lps_sorted p n : forall me acc pend, sorted pend -> sorted (snd (init_lps p n me acc pend)).
Proof.
  induction n as [|k IH]; intros me acc pend Hs; cbn; [exact Hs|].
  destruct (lp_init p me) as [st evs]. apply IH. apply inserts_sorted. exact Hs.
Qed.

Lemma seq_init_sorted p b : sorted (q_pending (seq_init p b)).
Proof.
  unfold seq_init. pose proof (init_lps_sorted p (N.to_nat (p_lps p)) 0%N [] [] sorted_nil) as H.
  destruct (init_lps p (N.to_nat (p_lps p)) 0%N [] []) as [lps pend]. exact H.
Qed.

Lemma seq_run_sorted fuel : forall p tend stop s, sorted (q_pending s) -> sorted (q_pending (fst (seq_run fuel p tend stop s))).
Proof.
  induction fuel as [|k IH]; intros p tend stop s Hs; cbn; [exact Hs|].
  destruct (seq_step p tend stop s) as [s'|] eqn:E; [|exact Hs].
  destruct (seq_step_spec p tend stop s s' Hs E) as (e & rest & _ & _ & _ & Hs' & _). apply IH. exact Hs'.
Qed.
