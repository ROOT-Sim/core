(* Executable step function of the c_a / c_b phase protocol (one transition of one thread), sound with respect to
   the relational model of TW/GvtCounters.v; used to replay the phase transitions traced from gvt.c. *)
From Coq Require Import List Arith Bool.
From RS Require Import TW.GvtCounters.
Import ListNotations.

Definition n_of (s : st) : nat := length (ths s).

Definition gstep (s : st) (i : nat) (to : ph) : option st :=
  match nth_error (ths s) i, to with
  | Some I, A => if Nat.eqb (cnt I (ths s)) (n_of s) || negb (Nat.eqb (cb s) 0)
                 then Some {| ths := upd (ths s) i A; ca := ca s; cb := cb s |} else None
  | Some A, B => if Nat.eqb (ca s) 0 then Some {| ths := upd (ths s) i B; ca := ca s; cb := S (cb s) |} else None
  | Some B, C => if Nat.eqb (cb s) (n_of s) then Some {| ths := upd (ths s) i C; ca := S (ca s); cb := cb s |} else None
  | Some C, D => if Nat.eqb (ca s) (n_of s) then Some {| ths := upd (ths s) i D; ca := ca s; cb := cb s - 1 |} else None
  | Some D, A => if Nat.eqb (cb s) 0 then Some {| ths := upd (ths s) i A; ca := ca s - 1; cb := cb s |} else None
  | Some D, I => if Nat.eqb (cb s) 0 then Some {| ths := upd (ths s) i I; ca := ca s - 1; cb := cb s |} else None
  | _, _ => None
  end.

Theorem gstep_sound s i to s' : gstep s i to = Some s' -> step s s'.
Proof.
  unfold gstep. destruct (nth_error (ths s) i) as [p|] eqn:Hi; [|discriminate].
  destruct p, to; try discriminate.
  - destruct (Nat.eqb (cnt I (ths s)) (n_of s) || negb (Nat.eqb (cb s) 0)) eqn:G; [|discriminate].
    intros E. injection E as <-. apply (start s i Hi).
    apply orb_true_iff in G. destruct G as [G|G].
    + left. apply Nat.eqb_eq in G. exact G.
    + right. apply negb_true_iff, Nat.eqb_neq in G. exact G.
  - destruct (Nat.eqb_spec (ca s) 0); [|discriminate]. intros E. injection E as <-. apply (stepA s i Hi). assumption.
  - destruct (Nat.eqb_spec (cb s) (n_of s)); [|discriminate]. intros E. injection E as <-. apply (stepB s i Hi). assumption.
  - destruct (Nat.eqb_spec (ca s) (n_of s)); [|discriminate]. intros E. injection E as <-. apply (stepC s i Hi). assumption.
  - destruct (Nat.eqb_spec (cb s) 0); [|discriminate]. intros E. injection E as <-. apply (stepD s i I Hi); [assumption|right; reflexivity].
  - destruct (Nat.eqb_spec (cb s) 0); [|discriminate]. intros E. injection E as <-. apply (stepD s i A Hi); [assumption|left; reflexivity].
Qed.

(* replay of a whole trace: None as soon as a traced transition is not enabled in the model *)
Fixpoint greplay (s : st) (tr : list (nat * ph)) : option st :=
  match tr with
  | [] => Some s
  | (i, to) :: r => match gstep s i to with Some s' => greplay s' r | None => None end
  end.

Theorem greplay_inv tr : forall s s', Inv s -> greplay s tr = Some s' -> Inv s'.
Proof.
  induction tr as [|[i to] r IH]; intros s s' HI E; cbn in E.
  - injection E as <-. exact HI.
  - destruct (gstep s i to) as [s1|] eqn:G; [|discriminate].
    apply (IH s1 s'); [|exact E]. eapply step_inv; [exact HI|]. eapply gstep_sound; exact G.
Qed.

Definition gvt_init (n : nat) : st := GvtCounters.init n.
