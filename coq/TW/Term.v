(* Model of src/gvt/termination.c (after the fix of finding F6: negative "not terminated" sentinel) for the
   LPs of one worker thread, with a ghost history per LP, and the soundness of a termination vote (C07). *)
From Coq Require Import ZArith List Bool Lia.
Import ListNotations.
Local Open Scope Z_scope.

Section Term.
Variable TMAX : Z.                       (* SIMTIME_MAX *)
Hypothesis TMAX_pos : 0 < TMAX.

Record tstate := mkT {
  term : list Z;                         (* termination_t per LP: -1 = predicate not (validly) true yet *)
  to_end : Z;                            (* lps_to_end *)
  max_t : Z;
  hist : list (list (Z * bool))          (* ghost: per LP, the (timestamp, predicate value) of the events in its history *)
}.

Fixpoint upd {A} (l : list A) (i : nat) (v : A) : list A :=
  match l, i with [], _ => [] | _ :: r, O => v :: r | x :: r, S k => x :: upd r k v end.

(* termination_lp_init for all LPs of the thread *)
Definition t_init (preds : list bool) : tstate :=
  mkT (map (fun b : bool => if b then TMAX else -1) preds)
      (Z.of_nat (length (filter negb preds))) 0 (map (fun _ => []) preds).

Inductive op :=
| Proc (lp : nat) (t : Z) (pred : bool)    (* termination_on_msg_process after a forward execution at time t *)
| Rb (lp : nat) (t : Z) (k : nat)          (* rollback caused by a message at time t: the last k history entries are undone *)
| Gvt (g tend : Z).                        (* termination_on_gvt *)

Definition proc (s : tstate) (lp : nat) (t : Z) (pred : bool) : tstate :=
  let h' := upd (hist s) lp (nth lp (hist s) [] ++ [(t, pred)]) in
  if 0 <=? nth lp (term s) (-1) then mkT (term s) (to_end s) (max_t s) h'
  else mkT (upd (term s) lp (if pred then t else -1)) (to_end s - (if pred then 1 else 0))
           (if pred then Z.max t (max_t s) else max_t s) h'.

Definition rollback (s : tstate) (lp : nat) (t : Z) (k : nat) : tstate :=
  let old := nth lp (term s) (-1) in
  let keep := (old <? t) || (old =? TMAX) in
  let h := nth lp (hist s) [] in
  mkT (upd (term s) lp (if keep then old else -1)) (to_end s + (if keep then 0 else 1)) (max_t s)
      (upd (hist s) lp (firstn (length h - k) h)).

Definition votes (s : tstate) (g tend : Z) : bool :=
  negb ((negb (to_end s =? 0) || (g <=? max_t s)) && (g <? tend)).

Definition gvt (s : tstate) (g tend : Z) : tstate :=
  if votes s g tend then mkT (term s) (to_end s) TMAX (hist s) else s.

Definition step (s : tstate) (o : op) : tstate :=
  match o with
  | Proc lp t pred => proc s lp t pred
  | Rb lp t k => rollback s lp t k
  | Gvt g tend => gvt s g tend
  end.

(* an operation is legal when it respects what the runtime guarantees: the LP exists, event times lie in [0, TMAX),
   a rollback at time t undoes only entries with time >= t *)
Definition legal (s : tstate) (o : op) : Prop :=
  match o with
  | Proc lp t _ => (lp < length (term s))%nat /\ 0 <= t < TMAX
  | Rb lp t k => (lp < length (term s))%nat /\ 0 <= t < TMAX /\
                 let h := nth lp (hist s) [] in
                 (k <= length h)%nat /\ forall e, In e (skipn (length h - k) h) -> t <= fst e
  | Gvt g tend => 0 <= g
  end.

Record Inv (s : tstate) : Prop := {
  i_len : length (hist s) = length (term s);
  i_count : to_end s = Z.of_nat (length (filter (fun x => x <? 0) (term s)));
  i_range : forall lp, (lp < length (term s))%nat -> nth lp (term s) (-1) = -1 \/ (0 <= nth lp (term s) (-1) <= TMAX);
  i_maxt : forall lp, (lp < length (term s))%nat -> 0 <= nth lp (term s) (-1) < TMAX -> nth lp (term s) (-1) <= max_t s;
  i_wit : forall lp, (lp < length (term s))%nat -> 0 <= nth lp (term s) (-1) < TMAX ->
            In (nth lp (term s) (-1), true) (nth lp (hist s) [])
}.

Lemma upd_length {A} (l : list A) : forall i v, length (upd l i v) = length l.
Proof. induction l as [|x l IH]; intros [|i] v; cbn; auto. Qed.
Lemma nth_upd_eq {A} (l : list A) d : forall i v, (i < length l)%nat -> nth i (upd l i v) d = v.
Proof. induction l as [|x l IH]; intros [|i] v H; cbn in *; try lia; auto. apply IH. lia. Qed.
Lemma nth_upd_neq {A} (l : list A) d : forall i j v, i <> j -> nth i (upd l j v) d = nth i l d.
Proof. induction l as [|x l IH]; intros [|i] [|j] v H; cbn; try reflexivity; try lia. apply IH. lia. Qed.
Lemma upd_nth {A} (l : list A) d : forall i, upd l i (nth i l d) = l.
Proof. induction l as [|x l IH]; intros [|i]; cbn; [reflexivity..|]. rewrite IH. reflexivity. Qed.

Lemma count_upd (l : list Z) : forall i v, (i < length l)%nat ->
  Z.of_nat (length (filter (fun x => x <? 0) (upd l i v))) =
  Z.of_nat (length (filter (fun x => x <? 0) l)) - (if nth i l (-1) <? 0 then 1 else 0) + (if v <? 0 then 1 else 0).
Proof.
  induction l as [|x l IH]; intros [|i] v H; cbn in *; try lia.
  - destruct (x <? 0); destruct (v <? 0); cbn [length]; lia.
  - specialize (IH i v ltac:(lia)). destruct (x <? 0); cbn [length]; lia.
Qed.

(* what [Inv] says of one LP: x its recorded time, h its history, m the maximum *)
Definition lp_inv (m x : Z) (h : list (Z * bool)) : Prop :=
  (x = -1 \/ 0 <= x <= TMAX) /\ (0 <= x < TMAX -> x <= m) /\ (0 <= x < TMAX -> In (x, true) h).

Lemma inv_lp s lp : Inv s -> (lp < length (term s))%nat -> lp_inv (max_t s) (nth lp (term s) (-1)) (nth lp (hist s) []).
Proof. intros [_ _ R M W] L. repeat split; auto. Qed.

Lemma inv_of_lps s : length (hist s) = length (term s) -> to_end s = Z.of_nat (length (filter (fun x => x <? 0) (term s))) ->
  (forall lp, (lp < length (term s))%nat -> lp_inv (max_t s) (nth lp (term s) (-1)) (nth lp (hist s) [])) -> Inv s.
Proof. intros L C P. constructor; [exact L|exact C|..]; intros lp Hl; apply (P lp Hl). Qed.

Lemma inv_upd s lp x h e m :
  Inv s -> (lp < length (term s))%nat -> max_t s <= m ->
  e = to_end s - (if nth lp (term s) (-1) <? 0 then 1 else 0) + (if x <? 0 then 1 else 0) ->
  lp_inv m x h -> Inv (mkT (upd (term s) lp x) e m (upd (hist s) lp h)).
Proof.
  intros I L M -> P. apply inv_of_lps; cbn [term to_end max_t hist].
  - rewrite !upd_length. exact (i_len s I).
  - rewrite count_upd by exact L. rewrite <- (i_count s I). reflexivity.
  - intros i Hi. rewrite upd_length in Hi. destruct (Nat.eq_dec i lp) as [->|N].
    + rewrite !nth_upd_eq by (rewrite ?(i_len s I); exact L). exact P.
    + rewrite !nth_upd_neq by exact N. destruct (inv_lp s i I Hi) as (R & W1 & W2).
      repeat split; auto. intros H. specialize (W1 H). lia.
Qed.

Lemma init_inv preds : Inv (t_init preds).
Proof.
  apply inv_of_lps; cbn.
  - rewrite !map_length. reflexivity.
  - induction preds as [|b preds IH]; cbn; [reflexivity|].
    destruct b; cbn.
    + destruct (Z.ltb_spec TMAX 0); [lia|]. exact IH.
    + cbn [length]. lia.
  - intros lp _. change (-1) with ((fun b : bool => if b then TMAX else -1) false). rewrite map_nth.
    unfold lp_inv. destruct (nth lp preds false); lia.
Qed.

Theorem step_inv s o : Inv s -> legal s o -> Inv (step s o).
Proof.
  intros I Hleg. destruct o as [lp t pred|lp t k|g tend]; cbn [step].
  - (* forward execution: recorded only when no time is recorded yet *)
    destruct Hleg as [L Ht]. unfold proc.
    destruct (Z.leb_spec 0 (nth lp (term s) (-1))) as [Hx|Hx].
    + rewrite <- (upd_nth (term s) (-1) lp) at 1. apply (inv_upd _ _ _ _ _ _ I L); [lia..|].
      destruct (inv_lp s lp I L) as (R & W1 & W2). repeat split; auto. intros H. apply in_or_app. left. exact (W2 H).
    + apply (inv_upd _ _ _ _ _ _ I L); [destruct pred; lia|..].
      * destruct (Z.ltb_spec (nth lp (term s) (-1)) 0); [|lia]. destruct pred; [destruct (Z.ltb_spec t 0)|change (-1 <? 0) with true]; cbn iota; lia.
      * destruct pred; repeat split; try lia. intros _. apply in_or_app. right. left. reflexivity.
  - (* rollback: a recorded time is kept iff it is earlier than the straggler, or TMAX (recorded at the start) *)
    destruct Hleg as (L & Ht & Hk & Hund). pose proof (inv_lp s lp I L) as P. unfold rollback.
    set (old := nth lp (term s) (-1)) in *. set (h := nth lp (hist s) []) in *.
    destruct (Z.ltb_spec old t) as [Hlt|Hge]; cbn [orb]; [|destruct (Z.eqb_spec old TMAX) as [E|E]];
      (apply (inv_upd _ _ _ _ _ _ I L); fold old; [apply Z.le_refl|..]).
    + (* earlier than the straggler: kept *) lia.
    + (* and its witness is not among the undone entries *)
      destruct P as (R & W1 & W2). repeat split; auto. intros H. specialize (W2 H).
      rewrite <- (firstn_skipn (length h - k) h) in W2. apply in_app_or in W2.
      destruct W2 as [W2|W2]; [exact W2|]. specialize (Hund _ W2). cbn in Hund. lia.
    + (* TMAX: kept *) lia.
    + destruct P as (R & W1 & _). repeat split; auto. lia.
    + (* 0 <= t <= old < TMAX: dropped, the LP counts as not terminated again *)
      destruct (Z.ltb_spec old 0); [lia|]. change (-1 <? 0) with true. cbn iota. lia.
    + repeat split; lia.
  - (* GVT *)
    unfold gvt. destruct (votes s g tend); [|exact I]. destruct I as [Hlen Hcnt Hrng Hmax Hwit].
    constructor; cbn [term to_end max_t hist]; auto. intros lp Hl Hx. lia.
Qed.

(* the vote is sound: a thread votes at GVT g only if g has reached the termination time, or every LP it owns has its
   predicate recorded true either on the initial state or by an event that is still in its history with a timestamp below g *)
Theorem vote_sound s g tend : Inv s -> votes s g tend = true ->
  tend <= g \/
  forall lp, (lp < length (term s))%nat ->
    nth lp (term s) (-1) = TMAX \/
    exists t, 0 <= t < g /\ In (t, true) (nth lp (hist s) []).
Proof.
  intros I V. unfold votes in V. destruct (Z.ltb_spec g tend) as [_|H]; [right|left; exact H].
  rewrite andb_true_r in V. apply negb_true_iff, orb_false_iff in V. destruct V as [V1 V2].
  apply negb_false_iff, Z.eqb_eq in V1. apply Z.leb_gt in V2.
  intros lp Hl. pose proof (inv_lp s lp I Hl) as P. set (x := nth lp (term s) (-1)) in *.
  assert (Hnn : 0 <= x).
  { (* a negative entry would be counted in to_end *)
    destruct (Z.ltb_spec x 0) as [Hneg|]; [exfalso|assumption].
    assert (Hin : In x (filter (fun x => x <? 0) (term s))).
    { apply filter_In. split; [apply nth_In; exact Hl|apply Z.ltb_lt; exact Hneg]. }
    pose proof (i_count s I) as Hcnt. destruct (filter _ _); [exact Hin|cbn in Hcnt; lia]. }
  destruct P as (R & W1 & W2). destruct (Z.eq_dec x TMAX) as [E|E]; [left; exact E|right].
  exists x. split; [specialize (W1 ltac:(lia)); lia|apply W2; lia].
Qed.

Fixpoint run (s : tstate) (os : list op) : tstate := match os with [] => s | o :: r => run (step s o) r end.
Fixpoint all_legal (s : tstate) (os : list op) : Prop :=
  match os with [] => True | o :: r => legal s o /\ all_legal (step s o) r end.

Theorem run_inv os : forall s, Inv s -> all_legal s os -> Inv (run s os).
Proof. induction os as [|o os IH]; intros s I L; cbn in *; [exact I|]. destruct L as [L1 L2]. apply IH; [apply step_inv; assumption|exact L2]. Qed.
End Term.
