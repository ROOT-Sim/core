(* Consequences of the instantiated capstone used by C03 and C09. *)
From Coq Require Import NArith ZArith List Bool Lia.
From RS Require Import Rng.RngDefs Rng.RngProofs TW.App TW.AppAbs.
Import ListNotations.

Definition below_ts (g : N) (c : cont) : bool := (c_t c <? g)%N.

Lemma below_ts_down g a b : ~ Abs.tlt cont tltb b a -> below_ts g b = true -> below_ts g a = true.
Proof.
  unfold Abs.tlt, tltb, below_ts. intros H Hb. apply N.ltb_lt in Hb. apply N.ltb_lt.
  destruct (N.ltb_spec (c_t b) (c_t a)) as [Hlt|Hge]; [exfalso; apply H; reflexivity|lia].
Qed.

Section Prog.
Variable p : prog.
Hypothesis Hvalid : prog_valid p = true.
Notation reachp := (ReachM.reach cont cltb tltb lpstate (nlps p) (s0 p) (ahandle p) (ainit p) (length (init_events p (nlps p) 0))).

(* C03: for a GVT value g valid in a reachable state, the part of an LP's history below g
   (i) is a prefix of the current history, and (ii) is exactly the LP's sequential dispatch sequence below g *)
Theorem committed_is_sequential_prefix g a :
  reachp a -> BridgeM.gvt_ok cont (below_ts g) a ->
  forall tr, Peel.seqrun cont (Abs.clt cont cltb) lpstate (Bridge.handle_g cont lpstate (ahandle p) (below_ts g)) (s0 p)
               (Bridge.Pg cont (ainit p) (below_ts g)) tr ->
  forall l, (l < nlps p)%nat ->
    Peel.proj cont l tr = BridgeM.Hg cont (below_ts g) a l /\
    exists rest, map (Abs.con cont) (AbsM.hist cont a l) = BridgeM.Hg cont (below_ts g) a l ++ rest.
Proof.
  intros R G tr Hrun l Hl. split.
  - eapply (app_time_warp_is_sequential p Hvalid (below_ts g) (below_ts_down g)); eassumption.
  - destruct (ReachM.reach_inv cont cltb clt_trans clt_total tltb tlt_clt tlt_negtrans lpstate (nlps p) (s0 p) (ahandle p)
               (ainit p) (ainit_nodup p) (length (init_events p (nlps p) 0)) (ainit_bound p) a R) as (_ & _ & J).
    destruct (Bridge.filter_below_prefix cont tltb (below_ts g) (below_ts_down g) (AbsM.hist cont a l)
                (AbsM2.j_ts _ _ _ _ _ _ _ a J l)) as (pre & r & E & Ef & _).
    exists (map (Abs.con cont) r). unfold BridgeM.Hg. rewrite Ef. rewrite E at 1. apply map_app.
Qed.

(* monotonicity in the bound: what is committed at g1 is the part below g1 of what is committed at a later g2 >= g1 *)
Lemma filter_below_mono g1 g2 (h : list (Abs.entry cont)) : (g1 <= g2)%N ->
  filter (Bridge.belowe cont (below_ts g1)) (filter (Bridge.belowe cont (below_ts g2)) h) = filter (Bridge.belowe cont (below_ts g1)) h.
Proof.
  intros Hg. induction h as [|e h IH]; [reflexivity|]. cbn [filter].
  destruct (Bridge.belowe cont (below_ts g2) e) eqn:E2.
  - cbn [filter]. rewrite IH. reflexivity.
  - assert (E1 : Bridge.belowe cont (below_ts g1) e = false).
    { unfold Bridge.belowe, below_ts in *. apply N.ltb_ge in E2. apply N.ltb_ge. lia. }
    rewrite E1. exact IH.
Qed.
End Prog.

Lemma xxtea_pass_u32 key : forall vs z sum p e new0,
  Forall (fun x => (x < W32)%N) (xxtea_pass vs z sum p e key new0).
Proof.
  induction vs as [|x vs IH]; intros z sum p0 e new0; cbn; [constructor|].
  destruct vs as [|y vs'].
  - constructor; [apply N.mod_lt; discriminate|constructor].
  - constructor; [apply N.mod_lt; discriminate|apply IH].
Qed.

Lemma xxtea_rounds_u32 key : forall rounds vs sum, (0 < rounds)%nat ->
  Forall (fun x => (x < W32)%N) (xxtea_rounds rounds vs sum key).
Proof.
  induction rounds as [|k IH]; intros vs sum H; [lia|]. cbn [xxtea_rounds].
  destruct k as [|k'].
  - cbn [xxtea_rounds]. apply xxtea_pass_u32.
  - apply IH. lia.
Qed.

Lemma join32_lt a b : (a < W32)%N -> (b < W32)%N -> (join32 a b < W64)%N.
Proof.
  intros Ha Hb. unfold join32. rewrite N.shiftl_mul_pow2.
  change W32 with (2 ^ 32)%N in Ha. rewrite (lor_disjoint_add a b 32 Ha).
  change (2 ^ 32)%N with W32 in *. unfold W32, W64 in *. lia.
Qed.

(* C09: the generator state produced by seeding is well formed for every (lp, seed), so by C18 every draw of
   every run is defined; it depends on (seed, lp) only because [rng_init] has no other argument. *)
Theorem rng_init_wf lp seed : rng_wf (rng_init lp seed).
Proof.
  unfold rng_init.
  set (v := [lo32 lp; hi32 lp; lo32 seed; hi32 seed; lo32 lp; hi32 lp; lo32 seed; hi32 seed]).
  assert (H : Forall (fun x => (x < W32)%N) (xxtea_encode v seeding_key)).
  { unfold xxtea_encode. apply xxtea_rounds_u32. cbn. lia. }
  destruct (xxtea_encode v seeding_key) as [|a [|b [|c [|d [|e [|f [|g [|h [|i l]]]]]]]]];
    try (unfold rng_wf; cbn; repeat split; reflexivity).
  repeat match goal with H : Forall _ (_ :: _) |- _ => inversion H; clear H; subst end.
  unfold rng_wf. cbn [s0 s1 s2 s3 RngDefs.s0 RngDefs.s1 RngDefs.s2 RngDefs.s3]. repeat split; apply join32_lt; assumption.
Qed.

Fixpoint draws (n : nat) (s : rng) : rng := match n with O => s | S k => draws k (snd (random_u64 s)) end.
Lemma draws_wf n : forall s, rng_wf s -> rng_wf (draws n s).
Proof. induction n as [|k IH]; intros s Hs; cbn; [exact Hs|]. apply IH. apply random_u64_wf. exact Hs. Qed.
(* every generator state reachable from seeding by any number of draws is well formed *)
Theorem reachable_generator_states_wf lp seed n : rng_wf (draws n (rng_init lp seed)).
Proof. apply draws_wf, rng_init_wf. Qed.
