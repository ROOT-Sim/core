(* The exactly-once / no-error theorems of TW/WorkerOnceProofs.v instantiated for the interpreter application:
   their hypotheses on the handler follow from a syntactic check of the program table. *)
From Coq Require Import List ZArith NArith PArith Bool Arith Lia Sorted Permutation FMapPositive.
From RS Require Import Order.MsgOrderDefs Heap.HeapList TW.App TW.Seq TW.Worker TW.WorkerProofs TW.WorkerSafety TW.WorkerOnce TW.WorkerOnceProofs.
Import ListNotations.

(* every event type the program can schedule is below the two reserved ones (LP_INIT = 65534, LP_FINI = 65535) *)
Definition types_okb (p : prog) : bool :=
  forallb (fun x => forallb (fun o => (o_type o <? LP_INIT_TYPE)%N) (r_outs (snd x))) (p_rows p) &&
  forallb (fun x => (snd (fst x) <? LP_INIT_TYPE)%N) (p_inits p).

Lemma lookup_row_in rows ty cls : lookup_row rows ty cls = empty_row \/ exists t c, In (t, c, lookup_row rows ty cls) rows.
Proof.
  induction rows as [|[[t c] r] rest IH]; cbn [lookup_row]; [left; reflexivity|].
  destruct ((t =? ty)%N && (c =? cls)%N); [right; exists t, c; left; reflexivity|].
  destruct IH as [IH|(t' & c' & IH)]; [left; exact IH|right; exists t', c'; right; exact IH].
Qed.

Lemma make_outs_spec p me now a os : forall j e, In e (make_outs p me now a j os) ->
  exists o, In o os /\ e_type e = o_type o /\ e_dest e = dest_of p me a o.
Proof.
  induction os as [|o r IH]; intros j e H; cbn [make_outs] in H; [destruct H|].
  destruct H as [<-|H]; [exists o; cbn; auto|]. destruct (IH _ _ H) as (o' & Ho & E). exists o'. split; [right; exact Ho|exact E].
Qed.

Lemma app_handle_type p ev st e : types_okb p = true -> In e (snd (handle p ev st)) -> (e_type e < LP_INIT_TYPE)%N.
Proof.
  intros Hok. unfold handle. destruct (can_end p (e_dest ev) st); [intros []|].
  destruct (fold_left _ (r_draws _) _) as [a3 g]. destruct (fold_left _ (r_mem _) _) as [a4 sl]. cbn [snd].
  intros H. destruct (make_outs_spec _ _ _ _ _ _ _ H) as (o & Ho & Et & _). rewrite Et.
  unfold types_okb in Hok. apply andb_true_iff in Hok. destruct Hok as [Hrows _].
  destruct (lookup_row_in (p_rows p) (e_type ev) (l_cnt st mod p_ncls p)) as [E|(t & c & Hin)]; [rewrite E in Ho; destruct Ho|].
  rewrite forallb_forall in Hrows. specialize (Hrows _ Hin). cbn [snd] in Hrows.
  rewrite forallb_forall in Hrows. apply N.ltb_lt. apply Hrows. exact Ho.
Qed.

Lemma app_handle_dest p ev st e : In e (snd (handle p ev st)) -> (e_dest ev < p_lps p)%N -> (e_dest e < p_lps p)%N.
Proof.
  unfold handle. destruct (can_end p (e_dest ev) st); [intros []|].
  destruct (fold_left _ (r_draws _) _) as [a3 g]. destruct (fold_left _ (r_mem _) _) as [a4 sl]. cbn [snd].
  intros H Hlt. destruct (make_outs_spec _ _ _ _ _ _ _ H) as (o & _ & _ & Ed). rewrite Ed. unfold dest_of.
  assert (Hpos : p_lps p <> 0%N) by lia.
  destruct (o_rule o =? 0)%N; [exact Hlt|]. destruct (o_rule o =? 1)%N; [apply N.mod_lt; exact Hpos|].
  destruct (o_rule o =? 2)%N; apply N.mod_lt; exact Hpos.
Qed.

Lemma app_init p me e : types_okb p = true -> In e (snd (lp_init p me)) -> e_dest e = me /\ (e_type e < LP_INIT_TYPE)%N.
Proof.
  intros Hok. unfold lp_init. cbn [snd].
  unfold types_okb in Hok. apply andb_true_iff in Hok. destruct Hok as [_ Hin]. rewrite forallb_forall in Hin.
  set (inits := filter _ (p_inits p)).
  assert (Hsub : forall x, In x inits -> In x (p_inits p)) by (intros x Hx; apply filter_In in Hx; tauto).
  clearbody inits. generalize 0%N. induction inits as [|[[[l t] ty] sz] r IH]; intros j H; [destruct H|].
  destruct H as [<-|H].
  - cbn. split; [reflexivity|]. apply N.ltb_lt. apply (Hin (l, t, ty, sz)). apply Hsub. left. reflexivity.
  - apply (IH ltac:(intros x Hx; apply Hsub; right; exact Hx) _ H).
Qed.

(* the lemmas of WorkerOnceProofs later files use, with the hypotheses on the handler discharged *)
Section AppFull.
Variable p : prog.
Variable ck : nat.
Hypothesis Hp : types_okb p = true.

Lemma app_init_full : full p (w_init p).
Proof. exact (w_init_full p (fun me e => app_init p me e Hp)). Qed.
Lemma app_process_msg_full w : full p w -> length (k_lps w) = N.to_nat (p_lps p) ->
  full p (process_msg p ck w) /\ length (k_lps (process_msg p ck w)) = length (k_lps w).
Proof. exact (process_msg_full p ck (app_handle_time p) (fun ev st e => app_handle_type p ev st e Hp) (app_handle_dest p) w). Qed.
Lemma app_take_msg w m w1 : full p w -> wq_extract w = (Some m, w1) -> taken p w m (lazy_fossil_of w1 (N.to_nat (e_dest (wm_ev m)))).
Proof. exact (take_msg p ck (app_handle_time p) w m w1). Qed.
End AppFull.

Section App.
Variable p : prog.
Variable ck : nat.
Hypothesis Hp : types_okb p = true.
Variable ops : list wop.
Let w := fold_left (wstep p ck) ops (w_init p).

Lemma app_full : full p w /\ length (k_lps w) = N.to_nat (p_lps p).
Proof.
  apply worker_full.
  - intros ev st e. apply app_handle_time.
  - intros ev st e. apply app_handle_type. exact Hp.
  - intros ev st e. apply app_handle_dest.
  - intros me e. apply app_init. exact Hp.
Qed.

(* The model never reaches a point where the C code would index out of bounds: every rollback finds a checkpoint at or
   below its target, every fossil collection keeps one, every cancellation notice finds its processed message. *)
Theorem worker_never_errs : k_err w = false.
Proof. exact (f_err p w (proj1 app_full)). Qed.

(* so the safety invariants of WorkerSafety hold unconditionally *)
Theorem worker_good : good w.
Proof. exact (f_good p w (proj1 app_full)). Qed.

(* Exactly-once cancellation: the location predicate, spelled out *)
Theorem worker_exactly_once :
  let f := k_flags w in let pd := pend w in let pr := allprocs (k_lps w) in let mk := allmarks (k_lps w) in
  NoDup (map wm_id pd) /\ NoDup (map wm_id pr) /\ NoDup (map wm_id mk) /\
  (forall a b, In a (pd ++ pr ++ mk) -> In b (pd ++ pr ++ mk) -> wm_id a = wm_id b -> a = b) /\
  (forall m, In m pd -> (fl f m = 3%N /\ In m pr) \/ ((fl f m = 0%N \/ fl f m = 1%N) /\ ~ In m pr)) /\
  (forall m, In m pr -> (fl f m = 3%N /\ In m pd) \/ (fl f m = 2%N /\ ~ In m pd) \/ (fl f m = 5%N /\ ~ In m pd)) /\
  (forall m, In m mk -> fl f m = 0%N \/ (fl f m = 2%N /\ (In m pr \/ (Z.of_N (tm m) < k_gvt w)%Z))).
Proof.
  cbn zeta. destruct (f_once p w (proj1 app_full)) as [A1 A2 A3 A4 A5 A6 A7 A8]. cbn [app] in *. repeat split; assumption.
Qed.

(* every processed message sits in the history of its own destination, and every pending one is addressed to a hosted LP *)
Theorem worker_destinations :
  (forall m, In m (pend w) -> N.to_nat (e_dest (wm_ev m)) < length (k_lps w)) /\
  (forall l m, l < length (k_lps w) -> In (EProc m) (x_hist (get_lp w l)) -> N.to_nat (e_dest (wm_ev m)) = l).
Proof.
  destruct (f_extra p w (proj1 app_full)) as [H1 H2]. split.
  - intros m Hm. apply (H1 m Hm).
  - intros l m Hl Hm. destruct (H2 l Hl) as (_ & _ & Hd & _). apply Hd. exact Hm.
Qed.
End App.
