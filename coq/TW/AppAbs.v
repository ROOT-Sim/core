(* Instantiation of the abstract Time Warp theory (RS.Abs) with the interpreter application:
   for every valid program table, in every reachable state of the micro-step abstract machine and for
   every valid bound, each LP's history below the bound is its sequential dispatch sequence. *)
From Coq Require Import NArith ZArith List Bool Lia.
From RS Require Import Base.Lex Order.MsgOrderDefs Order.MsgOrderProofs TW.App.
From RS.Abs Require Import Peel Abs Bridge AbsM AbsM2 BridgeM ReachM.
Import ListNotations.

(* event content: timestamp (ticks), type, payload *)
Definition cont := (N * N * list N)%type.
Definition c_t (c : cont) : N := fst (fst c).
Definition c_type (c : cont) : N := snd (fst c).
Definition c_pl (c : cont) : list N := snd c.

Definition key (c : cont) : list Z :=
  [Z.of_N (c_t c); 0%Z; (- Z.of_N (c_type c))%Z; Z.of_nat (length (c_pl c))] ++ map (fun b => (- Z.of_N b)%Z) (c_pl c).

Definition cltb (a b : cont) : bool := lexltb (key a) (key b).
Definition tltb (a b : cont) : bool := (c_t a <? c_t b)%N.

Lemma map_opp_inj l1 : forall l2, map (fun b => (- Z.of_N b)%Z) l1 = map (fun b => (- Z.of_N b)%Z) l2 -> l1 = l2.
Proof.
  induction l1 as [|x l1 IH]; intros [|y l2] H; cbn in H; try discriminate; [reflexivity|].
  injection H as Hx Hl. f_equal; [lia|auto].
Qed.

Lemma key_inj a b : key a = key b -> a = b.
Proof.
  destruct a as [[ta ya] pa], b as [[tb yb] pb]. unfold key, c_t, c_type, c_pl. cbn [fst snd app].
  intros H. injection H as Ht Hy _ Hp. apply map_opp_inj in Hp.
  assert (ta = tb) by lia. assert (ya = yb) by lia. subst. reflexivity.
Qed.

Notation clt := (Abs.clt cont cltb).
Notation tlt := (Abs.tlt cont tltb).

Lemma clt_irrefl a : ~ clt a a.
Proof. unfold Abs.clt, cltb. rewrite lexltb_irrefl. discriminate. Qed.
Lemma clt_trans a b c : clt a b -> clt b c -> clt a c.
Proof. unfold Abs.clt, cltb. apply lexltb_trans. Qed.
Lemma clt_total a b : clt a b \/ a = b \/ clt b a.
Proof.
  unfold Abs.clt, cltb. destruct (lexltb (key a) (key b)) eqn:E1; [left; reflexivity|].
  destruct (lexltb (key b) (key a)) eqn:E2; [right; right; reflexivity|].
  right; left. apply key_inj. apply lexltb_total; assumption.
Qed.
Lemma tlt_clt a b : tlt a b -> clt a b.
Proof.
  unfold Abs.tlt, Abs.clt, tltb, cltb, key. intros H. apply N.ltb_lt in H. cbn [app lexltb].
  destruct (Z.ltb_spec (Z.of_N (c_t a)) (Z.of_N (c_t b))); [reflexivity|lia].
Qed.
Lemma clt_not_tlt a b : clt a b -> ~ tlt b a.
Proof.
  unfold Abs.tlt, Abs.clt, tltb, cltb, key. cbn [app lexltb]. intros H Hc. apply N.ltb_lt in Hc.
  destruct (Z.ltb_spec (Z.of_N (c_t a)) (Z.of_N (c_t b))); [lia|].
  destruct (Z.eqb_spec (Z.of_N (c_t a)) (Z.of_N (c_t b))); [lia|discriminate].
Qed.
Lemma tlt_negtrans a b c : ~ tlt b a -> ~ tlt c b -> ~ tlt c a.
Proof.
  unfold Abs.tlt, tltb. intros H1 H2 H3. apply N.ltb_lt in H3.
  destruct (N.ltb_spec (c_t b) (c_t a)); [apply H1; reflexivity|].
  destruct (N.ltb_spec (c_t c) (c_t b)); [apply H2; reflexivity|]. lia.
Qed.

(* the order of the abstract theory is the runtime's event order (C16 model) on these contents *)
Lemma cltb_is_event_order (l1 l2 : N) (a b : cont) :
  cltb a b = ev_before (mkEv l1 (c_t a) (c_type a) (c_pl a)) (mkEv l2 (c_t b) (c_type b) (c_pl b)).
Proof.
  unfold ev_before. rewrite before_is_lex by (unfold wf_msg, msg_of; cbn; rewrite Nat2Z.id, map_length; lia).
  unfold cltb, key, content, msg_of, payload, anti_bit. cbn [m_t m_flags m_type m_plsize m_pl e_t e_type e_pl e_dest].
  rewrite !Nat2Z.id. rewrite !firstn_all2 by (rewrite map_length; lia).
  rewrite !map_map. reflexivity.
Qed.

Section Prog.
Variable p : prog.
Definition nlps : nat := N.to_nat (p_lps p).

Definition out_ok (ty : N) (o : outspec) : bool := ((0 <? o_dt o) || (o_type o <? ty))%N.
Definition prog_valid : bool :=
  (0 <? p_lps p)%N && forallb (fun x => let '(ty, _, r) := x in forallb (out_ok ty) (r_outs r)) (p_rows p).
Hypothesis Hvalid : prog_valid = true.

Definition ev_of (l : nat) (c : cont) : event := mkEv (N.of_nat l) (c_t c) (c_type c) (c_pl c).
Definition cont_of (e : event) : cont := (e_t e, e_type e, e_pl e).
Definition pay_of (e : event) : nat * cont := (N.to_nat (e_dest e), cont_of e).

Definition ahandle (l : nat) (s : lpstate) (c : cont) : lpstate * list (nat * cont) :=
  if (l <? nlps)%nat then
    let '(s', outs) := handle p (ev_of l c) s in (s', map pay_of outs)
  else (s, []).

Definition s0 (l : nat) : lpstate := fst (lp_init p (N.of_nat l)).

Lemma lps_pos : (0 < p_lps p)%N.
Proof. apply N.ltb_lt, (proj1 (andb_prop _ _ Hvalid)). Qed.

Lemma lookup_row_ok rows ty cls :
  forallb (fun x => let '(t, _, r) := x in forallb (out_ok t) (r_outs r)) rows = true ->
  forallb (out_ok ty) (r_outs (lookup_row rows ty cls)) = true.
Proof.
  induction rows as [|[[t c] r] rows IH]; cbn; [reflexivity|].
  intros H. apply andb_true_iff in H. destruct H as [H1 H2].
  destruct (N.eqb_spec t ty) as [->|]; cbn [andb]; [|apply IH; exact H2].
  destruct (N.eqb_spec c cls); [exact H1|apply IH; exact H2].
Qed.

Lemma dest_lt me a o : (me < p_lps p)%N -> (dest_of p me a o < p_lps p)%N.
Proof.
  intros Hme. pose proof lps_pos. unfold dest_of.
  repeat match goal with |- context [if ?c then _ else _] => destruct c end; try assumption; apply N.mod_lt; lia.
Qed.

Lemma make_outs_spec me now a ty : forall os j o,
  (me < p_lps p)%N -> forallb (out_ok ty) os = true -> In o (make_outs p me now a j os) ->
  (e_dest o < p_lps p)%N /\ ((now < e_t o)%N \/ (e_t o = now /\ (e_type o < ty)%N)).
Proof.
  induction os as [|o1 os IH]; intros j o Hme Hok Hin; cbn in *; [contradiction|].
  apply andb_true_iff in Hok. destruct Hok as [H1 H2]. destruct Hin as [<-|Hin].
  - cbn [e_dest e_t e_type]. split; [apply dest_lt; exact Hme|].
    unfold out_ok in H1. apply orb_true_iff in H1. destruct H1 as [H1|H1].
    + apply N.ltb_lt in H1. left. lia.
    + apply N.ltb_lt in H1. destruct (N.eq_dec (o_dt o1) 0) as [E|E]; [right; split; [lia|exact H1]|left; lia].
  - eapply IH; eassumption.
Qed.

Lemma avalid l s c o : In o (snd (ahandle l s c)) -> clt c (snd o) /\ (fst o < nlps)%nat.
Proof.
  unfold ahandle. destruct (Nat.ltb_spec l nlps) as [Hl|Hl]; [|cbn; contradiction].
  unfold handle. destruct (can_end p (e_dest (ev_of l c)) s); [cbn; contradiction|].
  match goal with |- context [lookup_row ?r ?t ?k] => set (rw := lookup_row r t k) end.
  destruct (fold_left _ (r_draws rw) _) as [a3 g]. destruct (fold_left _ (r_mem rw) _) as [a4 sl].
  cbn [snd]. intros Hin. apply in_map_iff in Hin. destruct Hin as (e & <- & He).
  assert (Hme : (e_dest (ev_of l c) < p_lps p)%N) by (cbn; unfold nlps in Hl; lia).
  assert (Hrows : forallb (out_ok (e_type (ev_of l c))) (r_outs rw) = true).
  { apply lookup_row_ok, (proj2 (andb_prop _ _ Hvalid)). }
  destruct (make_outs_spec _ _ _ _ _ _ _ Hme Hrows He) as [Hd Ht].
  split; [|cbn; unfold nlps; lia].
  unfold Abs.clt, cltb, key, pay_of, cont_of, c_t, c_type, c_pl. cbn [fst snd app lexltb e_t e_type ev_of].
  cbn [e_t e_type ev_of] in Ht. unfold c_t, c_type in Ht.
  destruct Ht as [Ht|[Ht Hy]].
  - destruct (Z.ltb_spec (Z.of_N (fst (fst c))) (Z.of_N (e_t e))); [reflexivity|lia].
  - rewrite Ht, Z.ltb_irrefl, Z.eqb_refl. cbn.
    destruct (Z.ltb_spec (- Z.of_N (snd (fst c))) (- Z.of_N (e_type e))); [reflexivity|lia].
Qed.

(* the initial messages: the events scheduled by every LP_INIT, numbered from 0 *)
Fixpoint init_events (k : nat) (me : N) : list event :=
  match k with O => [] | S k' => snd (lp_init p me) ++ init_events k' (me + 1) end.
Fixpoint number_init (id : nat) (es : list event) : list (Abs.msg cont) :=
  match es with
  | [] => []
  | e :: r => {| mid := id; mdest := N.to_nat (e_dest e); mc := cont_of e |} :: number_init (S id) r
  end.
Definition ainit : list (Abs.msg cont) := number_init 0 (init_events nlps 0).

Lemma number_init_ids es : forall id, map (mid cont) (number_init id es) = seq id (length es).
Proof. induction es as [|e es IH]; intros id; cbn; [reflexivity|]. rewrite IH. reflexivity. Qed.

Lemma ainit_nodup : NoDup (map (mid cont) ainit).
Proof. unfold ainit. rewrite number_init_ids. apply seq_NoDup. Qed.

Lemma ainit_bound m : In m ainit -> (mid cont m < length (init_events nlps 0))%nat.
Proof.
  intros H. apply (in_map (mid cont)) in H. unfold ainit in H. rewrite number_init_ids in H.
  apply in_seq in H. lia.
Qed.

Lemma lp_init_dest me e : In e (snd (lp_init p me)) -> e_dest e = me.
Proof.
  unfold lp_init. cbn [snd].
  generalize (filter (fun x : N * N * N * N => let '(l, _, _, _) := x in (l =? me)%N) (p_inits p)).
  generalize 0%N. intros j l. revert j. induction l as [|[[[a b] c] d] l IH]; intros j; cbn; [tauto|].
  intros [<-|H]; [reflexivity|eauto].
Qed.

Lemma init_events_dest k : forall me e, In e (init_events k me) -> (me <= e_dest e < me + N.of_nat k)%N.
Proof.
  induction k as [|k IH]; intros me e H; cbn in H; [contradiction|].
  apply in_app_or in H. destruct H as [H|H].
  - apply lp_init_dest in H. lia.
  - apply IH in H. lia.
Qed.

Lemma number_init_dest es : forall id m, In m (number_init id es) -> exists e, In e es /\ mdest cont m = N.to_nat (e_dest e).
Proof.
  induction es as [|e es IH]; intros id m H; cbn in H; [contradiction|].
  destruct H as [<-|H]; [exists e; cbn; auto|]. destruct (IH _ _ H) as (e' & He' & Hd). exists e'. cbn. auto.
Qed.

Lemma ainit_dest m : In m ainit -> (mdest cont m < nlps)%nat.
Proof.
  intros H. destruct (number_init_dest _ _ _ H) as (e & He & ->).
  apply init_events_dest in He. unfold nlps in *. lia.
Qed.

(* the C01/C03 capstone, instantiated *)
Theorem app_time_warp_is_sequential (below : cont -> bool) :
  (forall a b, ~ tlt b a -> below b = true -> below a = true) ->
  forall a, ReachM.reach cont cltb tltb lpstate nlps s0 ahandle ainit (length (init_events nlps 0)) a ->
  BridgeM.gvt_ok cont below a ->
  forall tr, Peel.seqrun cont clt lpstate (Bridge.handle_g cont lpstate ahandle below) s0
               (Bridge.Pg cont ainit below) tr ->
  forall l, (l < nlps)%nat -> Peel.proj cont l tr = BridgeM.Hg cont below a l.
Proof.
  intros Hb a R G tr Hrun l Hl.
  eapply (ReachM.time_warp_m_below_gvt_is_sequential cont cltb clt_irrefl clt_trans clt_total tltb tlt_clt
            clt_not_tlt tlt_negtrans lpstate nlps s0 ahandle avalid ainit ainit_dest ainit_nodup below Hb
            (length (init_events nlps 0)) a ainit_bound R G tr Hrun l Hl).
Qed.
End Prog.
