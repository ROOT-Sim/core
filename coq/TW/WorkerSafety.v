(* Safety of GVT-driven fossil collection on the worker model (TW/Worker.v), for every script:
   - every pending message (shared list, heap, held by the network) carries a timestamp at or above the last announced GVT;
   - the private heap is a heap for the timestamp although its comparator reads flag words that change while messages are queued;
   - the processed messages of every LP's history are in timestamp order, none above the LP's bound;
   hence every processed message a fossil collection releases lies strictly below the GVT (fossil_releases_below), while
   every message that can still arrive lies at or above it. *)
From Coq Require Import List ZArith NArith Bool Arith Lia Sorted Permutation FMapPositive.
From RS Require Import Order.MsgOrderDefs Heap.HeapList Heap.HeapListProofs Heap.HeapTime TW.App TW.Seq TW.Worker TW.WorkerProofs.
Import ListNotations.

Definition tm (m : wmsg) : N := e_t (wm_ev m).

Lemma wbefore_le f a b : wbefore f a b = true -> (tm a <= tm b)%N.
Proof.
  unfold wbefore, before, rt_msg, tm. cbn [m_t]. intros H. apply orb_true_iff in H. destruct H as [H|H].
  - apply Z.ltb_lt in H. lia.
  - apply andb_true_iff in H. destruct H as [H _]. apply Z.eqb_eq in H. lia.
Qed.
Lemma wbefore_lt f a b : (tm a < tm b)%N -> wbefore f a b = true.
Proof.
  unfold wbefore, before, rt_msg, tm. cbn [m_t]. intros H. apply orb_true_iff. left. apply Z.ltb_lt. lia.
Qed.
Lemma wbefore_compat f : compat wmsg tm (wbefore f).
Proof. split; [apply wbefore_le|apply wbefore_lt]. Qed.

Definition heldl (hs : list (option wmsg)) : list wmsg := flat_map (fun h => match h with Some m => [m] | None => [] end) hs.
Definition pend (w : worker) : list wmsg := k_shared w ++ k_heap w ++ heldl (k_held w).
Definition ge (g : Z) (m : wmsg) : Prop := (g <= Z.of_N (tm m))%Z.

Definition ptimes (hist : list entry) : list N :=
  flat_map (fun e => match e with EProc m => [tm m] | ESent _ => [] end) hist.
Definition lp_time (x : lpx) : Prop :=
  StronglySorted N.le (ptimes (x_hist x)) /\ forall t, In t (ptimes (x_hist x)) -> (Z.of_N t <= x_bound x)%Z.

Lemma ptimes_app a b : ptimes (a ++ b) = ptimes a ++ ptimes b.
Proof. apply flat_map_app. Qed.
Lemma ptimes_sent ms : ptimes (map ESent ms) = [].
Proof. induction ms; [reflexivity|assumption]. Qed.
Lemma ptimes_split hist n : ptimes hist = ptimes (firstn n hist) ++ ptimes (skipn n hist).
Proof. rewrite <- ptimes_app, firstn_skipn. reflexivity. Qed.
Lemma ptimes_in hist m : In (EProc m) hist -> In (tm m) (ptimes hist).
Proof. intros H. apply in_flat_map. exists (EProc m). split; [exact H|left; reflexivity]. Qed.
Lemma in_ptimes hist t : In t (ptimes hist) -> exists m, In (EProc m) hist /\ tm m = t.
Proof.
  unfold ptimes. intros H. apply in_flat_map in H. destruct H as (e & He & Ht). destruct e as [m|m]; [destruct Ht|].
  destruct Ht as [<-|[]]. exists m. split; [exact He|reflexivity].
Qed.
Lemma sorted_firstn {A} (R : A -> A -> Prop) (l : list A) n : StronglySorted R l -> StronglySorted R (firstn n l).
Proof. intros H. rewrite <- (firstn_skipn n l) in H. apply (sorted_app_l R _ _ H). Qed.
Lemma sorted_skipn {A} (R : A -> A -> Prop) (l : list A) n : StronglySorted R l -> StronglySorted R (skipn n l).
Proof. intros H. rewrite <- (firstn_skipn n l) in H. apply (sorted_app_r R _ _ H). Qed.
Lemma sorted_app_le (a : list N) x : StronglySorted N.le a -> (forall t, In t a -> (t <= x)%N) -> StronglySorted N.le (a ++ [x]).
Proof.
  induction a as [|y a IH]; intros Hs Hle; cbn; [repeat constructor|].
  inversion Hs as [|? ? Hs' Hall]; subst. constructor; [apply IH; [exact Hs'|intros t Ht; apply Hle; right; exact Ht]|].
  rewrite Forall_forall in *. intros z Hz. apply in_app_or in Hz. destruct Hz as [Hz|[<-|[]]]; [apply Hall; exact Hz|apply Hle; left; reflexivity].
Qed.
Lemma set_nth_forall2 {A} (P : A -> Prop) (l : list A) i x : Forall P l -> (i < length l -> P x) -> Forall P (set_nth l i x).
Proof. apply set_nth_forall. Qed.

Lemma ptimes_cross hist k t u : StronglySorted N.le (ptimes hist) -> In t (ptimes (firstn k hist)) -> In u (ptimes (skipn k hist)) -> (t <= u)%N.
Proof. intros Hs. rewrite (ptimes_split hist k) in Hs. apply (sorted_app_cross N.le _ _ t u Hs). Qed.
Lemma firstn_snoc {A} (l : list A) k x : nth_error l k = Some x -> firstn (S k) l = firstn k l ++ [x].
Proof.
  revert k. induction l as [|y l IH]; intros [|k] H; cbn in *; try discriminate.
  - injection H as ->. reflexivity.
  - f_equal. apply IH. exact H.
Qed.
Lemma ptimes_below hist k e : StronglySorted N.le (ptimes hist) -> nth_error hist (pred k) = Some (EProc e) -> 0 < k ->
  forall t, In t (ptimes (firstn k hist)) -> (t <= tm e)%N.
Proof.
  intros Hs Hn Hk t Ht. destruct k as [|k]; [lia|]. cbn [pred] in Hn.
  rewrite (firstn_snoc hist k (EProc e) Hn), ptimes_app in Ht. apply in_app_or in Ht. destruct Ht as [Ht|[<-|[]]]; [|apply N.le_refl].
  apply (ptimes_cross hist k t (tm e) Hs Ht). apply ptimes_in, (nth_error_In _ 0). rewrite nth_error_skipn_add, Nat.add_0_r. exact Hn.
Qed.
Lemma ptimes_above hist k e : StronglySorted N.le (ptimes hist) -> nth_error hist k = Some (EProc e) ->
  forall t, In t (ptimes (skipn (S k) hist)) -> (tm e <= t)%N.
Proof.
  intros Hs Hn t Ht. apply (ptimes_cross hist (S k) (tm e) t Hs); [|exact Ht].
  rewrite (firstn_snoc hist k (EProc e) Hn), ptimes_app. apply in_or_app. right. left. reflexivity.
Qed.

Lemma anti_undone_ge hist k a : StronglySorted N.le (ptimes hist) -> anti_index a hist = Some k ->
  forall m, In (EProc m) (skipn k hist) -> (tm a <= tm m)%N.
Proof.
  intros Hs Ha m Hm. destruct (anti_index_spec a hist k Ha) as (_ & j & Hkj & Hn & Hsent).
  apply In_nth_error in Hm. destruct Hm as (i & Hi). rewrite nth_error_skipn_add in Hi.
  destruct (Nat.lt_trichotomy (k + i) j) as [Hlt|[Heq|Hgt]].
  - destruct (Hsent (k + i) ltac:(lia)) as (m' & Hm'). rewrite Hm' in Hi. discriminate.
  - rewrite Heq, Hn in Hi. injection Hi as <-. apply N.le_refl.
  - apply (ptimes_above hist j a Hs Hn). apply ptimes_in.
    apply nth_error_In with (n := k + i - S j). rewrite nth_error_skipn_add. replace (S j + (k + i - S j)) with (k + i) by lia. exact Hi.
Qed.

Lemma pend_insert w m : pend (wq_insert w m) = m :: pend w.
Proof. reflexivity. Qed.
Lemma pend_sent w news : pend (sent_state w news) = rev news ++ pend w.
Proof. unfold pend. cbn. apply app_assoc_reverse. Qed.
Lemma heldl_app a b : heldl (a ++ b) = heldl a ++ heldl b.
Proof. apply flat_map_app. Qed.

Lemma fold_insert_perm f ms : forall h, Permutation (fold_left (fun h m => heap_insert wmsg wm_dummy (wbefore f) h m) ms h) (ms ++ h).
Proof.
  induction ms as [|m ms IH]; intros h; cbn; [reflexivity|].
  eapply perm_trans; [apply IH|]. eapply perm_trans; [apply Permutation_app_head; apply heap_insert_perm|].
  apply Permutation_sym. apply Permutation_middle.
Qed.
Lemma fold_insert_theap f ms : forall h, theap wmsg wm_dummy tm h ->
  theap wmsg wm_dummy tm (fold_left (fun h m => heap_insert wmsg wm_dummy (wbefore f) h m) ms h).
Proof.
  induction ms as [|m ms IH]; intros h Hh; cbn; [exact Hh|]. apply IH. apply heap_insert_theap; [apply wbefore_compat|exact Hh].
Qed.
Lemma transfer_perm w : Permutation (pend (wq_transfer w)) (pend w).
Proof. unfold pend. cbn. rewrite app_assoc. apply Permutation_app_tail, fold_insert_perm. Qed.
Lemma wq_extract_perm w : match wq_extract w with
                          | (Some m, w1) => Permutation (pend w) (m :: pend w1)
                          | (None, w1) => Permutation (pend w) (pend w1)
                          end.
Proof.
  unfold wq_extract.
  destruct (heap_extract wmsg wm_dummy (wbefore (k_flags (wq_transfer w))) (k_heap (wq_transfer w))) as [[m h']|] eqn:E; [|apply Permutation_sym, transfer_perm].
  rewrite <- (transfer_perm w). unfold pend. cbn [k_shared k_heap k_held set_queue wq_transfer app].
  change (m :: h' ++ heldl (k_held w)) with ((m :: h') ++ heldl (k_held w)). apply Permutation_app_tail, Permutation_sym, (heap_extract_perm wmsg wm_dummy _ _ _ _ E).
Qed.

Lemma undo_all_pend es : forall w x, In x (pend (fold_left undo_entry es w)) -> In x (pend w) \/ In x (map entry_msg es).
Proof.
  induction es as [|e es IH]; intros w x Hx; cbn [fold_left map] in *; [left; exact Hx|].
  destruct (IH _ x Hx) as [H|H]; [|right; right; exact H]. revert H. unfold undo_entry. destruct e as [m|m].
  - destruct (flag_add (k_flags w) (wm_id m) FLAG_ANTI) as [o f]. destruct (has o FLAG_PROC); [intros [<-|H]|intros H]; cbn; tauto.
  - destruct (flag_sub (k_flags w) (wm_id m) FLAG_PROC) as [o f]. destruct (has o FLAG_ANTI); [intros H|intros [<-|H]]; cbn; tauto.
Qed.

Lemma heldl_set_none hs : forall j m, nth j hs None = Some m -> Permutation (m :: heldl (set_nth hs j None)) (heldl hs).
Proof.
  induction hs as [|h r IH]; intros j m Hn; [destruct j; discriminate|]. destruct j as [|j]; cbn [nth set_nth] in *.
  - subst h. cbn. apply Permutation_refl.
  - specialize (IH j m Hn). destruct h as [a|]; [|exact IH].
    change (heldl (Some a :: ?t)) with (a :: heldl t). eapply perm_trans; [apply perm_swap|]. apply perm_skip. exact IH.
Qed.

(* the script operations that only move pending messages around *)
Definition moved (w w' : worker) : Prop :=
  Permutation (pend w) (pend w') /\ same_lps w w' /\ k_flags w' = k_flags w /\ k_next w' = k_next w.

Lemma transfer_moved w : moved w (wq_transfer w).
Proof. split; [apply Permutation_sym, transfer_perm|repeat split]. Qed.
Lemma hold_step_moved w m w1 : wq_extract w = (Some m, w1) -> moved w (set_held w1 (k_held w1 ++ [Some m])).
Proof.
  intros E. pose proof (wq_extract_perm w) as Hp. destruct (extract_same w) as (A1 & A2 & A3 & A4). rewrite E in *. cbn [snd] in *.
  split; [|split; [exact A1|split; assumption]]. rewrite Hp. unfold pend. cbn [set_held k_shared k_heap k_held]. rewrite heldl_app. cbn [heldl flat_map app].
  rewrite !app_assoc. apply Permutation_cons_append.
Qed.
Lemma unhold_moved i w : moved w (unhold i w).
Proof.
  unfold unhold. destruct (k_held w) as [|h0 hs0] eqn:Eh; [repeat split; apply Permutation_refl|]. rewrite <- Eh.
  destruct (nth (i mod length (k_held w)) (k_held w) None) as [m|] eqn:En; [|repeat split; apply Permutation_refl].
  split; [|repeat split]. unfold pend. cbn [wq_insert set_held k_shared k_heap k_held app].
  apply Permutation_sym. eapply perm_trans; [apply Permutation_middle|]. apply Permutation_app_head.
  eapply perm_trans; [apply Permutation_middle|]. apply Permutation_app_head, heldl_set_none, En.
Qed.
Lemma unhold_all_moved w : moved w (unhold_all w).
Proof.
  unfold unhold_all. destruct (unhold_all_fold (k_held w) w) as (A1 & A2 & A3 & A4 & A5). cbn zeta in *.
  split; [|split; [exact A1|split; assumption]]. unfold pend. cbn [set_held k_shared k_heap k_held heldl flat_map]. rewrite A2, app_nil_r.
  assert (G : forall hs w0, Permutation (heldl hs ++ k_shared w0) (k_shared (fold_left (fun w' h => match h with Some m => wq_insert w' m | None => w' end) hs w0))).
  { induction hs as [|h r IH]; intros w0; cbn [fold_left]; [apply Permutation_refl|]. destruct h as [m|]; [|apply IH].
    rewrite <- IH. cbn [wq_insert k_shared heldl flat_map app]. apply Permutation_middle. }
  rewrite <- G, (Permutation_app_comm (heldl _) (k_shared w)), <- app_assoc. apply Permutation_app_head, Permutation_app_comm.
Qed.

Section Safety.
Variable p : prog.
Variable ck : nat.
(* what is used of the application: a handler never schedules into the past *)
Hypothesis H_time : forall ev st e, In e (snd (handle p ev st)) -> (e_t ev <= e_t e)%N.

Record good (w : worker) : Prop := {
  s_pend : forall m, In m (pend w) -> ge (k_gvt w) m;
  s_heap : theap wmsg wm_dummy tm (k_heap w);
  s_time : Forall lp_time (k_lps w)
}.
(* the error flag marks an execution in which the C code would have had undefined behaviour: nothing is claimed after it *)
Definition safe (w : worker) : Prop := all_ok2 p w /\ (k_err w = false -> good w).

Lemma get_time w l : good w -> l < length (k_lps w) -> lp_time (get_lp w l).
Proof. intros [_ _ S4] Hl. rewrite Forall_forall in S4. apply S4, get_lp_in, Hl. Qed.
Lemma put_lp_good w l x : good w -> (l < length (k_lps w) -> lp_time x) -> good (put_lp w l x).
Proof. intros [S2 S3 S4] Hx. constructor; [exact S2|exact S3|apply set_nth_forall; assumption]. Qed.
Lemma set_flags_good w f : good w -> good (set_flags w f).
Proof. intros [S2 S3 S4]. constructor; assumption. Qed.

Lemma good_incl w w' : good w -> (forall x, In x (pend w') -> In x (pend w)) -> theap wmsg wm_dummy tm (k_heap w') -> same_lps w w' -> good w'.
Proof.
  intros [S2 S3 S4] Hin Hh (El & _ & Eg & _). constructor; [|exact Hh|rewrite El; exact S4].
  intros x Hx. unfold ge. rewrite Eg. apply S2, Hin, Hx.
Qed.
Lemma good_moved w w' : good w -> moved w w' -> theap wmsg wm_dummy tm (k_heap w') -> good w'.
Proof. intros G (Hp & Hs & _) Hh. apply (good_incl w w' G); [intros x Hx; exact (Permutation_in _ (Permutation_sym Hp) Hx)|exact Hh|exact Hs]. Qed.

Lemma transfer_good w : good w -> good (wq_transfer w).
Proof. intros G. apply (good_moved w _ G (transfer_moved w)), fold_insert_theap, (s_heap w G). Qed.

Lemma extract_good w : good w ->
  match wq_extract w with
  | (None, w1) => good w1
  | (Some m, w1) => good w1 /\ ge (k_gvt w) m
  end.
Proof.
  intros G. pose proof (transfer_good w G) as Gt. pose proof (wq_extract_perm w) as Hp. destruct (extract_same w) as (A1 & _).
  unfold wq_extract in *. destruct (heap_extract wmsg wm_dummy _ (k_heap (wq_transfer w))) as [[m h']|] eqn:E; [|exact Gt].
  cbn [snd] in *. split; [|apply (s_pend w G), (Permutation_in _ (Permutation_sym Hp)); left; reflexivity].
  apply (good_incl w _ G); [intros x Hx; apply (Permutation_in _ (Permutation_sym Hp)); right; exact Hx| |exact A1].
  exact (heap_extract_theap wmsg wm_dummy tm _ _ _ _ (wbefore_compat _) (s_heap _ Gt) E).
Qed.

Lemma hist_ok_sent_ge es : forall st pend (lo : N), hist_ok p st pend es ->
  (forall m, In (EProc m) es -> (lo <= tm m)%N) ->
  (forall ev, In ev pend -> es <> [] -> (lo <= e_t ev)%N) /\ (forall m, In (ESent m) es -> (lo <= tm m)%N).
Proof.
  induction es as [|e es IH]; intros st pend lo H Hp.
  - split; [intros ev _ Hne; congruence|intros m []].
  - destruct e as [m|m]; cbn [hist_ok] in H.
    + destruct es as [|e2 es2] eqn:Ees.
      * (* a trailing marker cannot exist: hist_ok on [] wants pend = [] *)
        cbn in H. destruct pend; discriminate.
      * rewrite <- Ees in *.
        destruct (IH st (pend ++ [wm_ev m]) lo H ltac:(intros x Hx; apply Hp; right; exact Hx)) as [I1 I2].
        assert (Hne : es <> []) by (rewrite Ees; discriminate).
        split.
        -- intros ev Hev _. apply I1; [apply in_or_app; left; exact Hev|exact Hne].
        -- intros x [Hx|Hx]; [injection Hx as <-; apply (I1 (wm_ev m)); [apply in_or_app; right; left; reflexivity|exact Hne]|apply I2; exact Hx].
    + destruct H as [Epend Hr].
      assert (Hm : (lo <= tm m)%N) by (apply Hp; left; reflexivity).
      split.
      * intros ev Hev _. rewrite Epend in Hev. pose proof (H_time _ _ _ Hev) as Ht. unfold tm in Hm. lia.
      * intros x [Hx|Hx]; [discriminate|].
        destruct (IH _ [] lo Hr ltac:(intros y Hy; apply Hp; right; exact Hy)) as [_ I2]. apply I2. exact Hx.
Qed.

Lemma undone_marks_ge x past (lo : N) : lp_ok2 p x -> bnd (x_hist x) past -> fst (base x) <= past ->
  (forall m, In (EProc m) (skipn past (x_hist x)) -> (lo <= tm m)%N) ->
  forall m, In (ESent m) (skipn past (x_hist x)) -> (lo <= tm m)%N.
Proof. intros [_ Hwf] Hbnd Hr0 Hproc. exact (proj2 (hist_ok_sent_ge _ _ [] lo (wf_from p x past Hwf Hbnd Hr0) Hproc)). Qed.

Lemma do_rollback_pend w l past y : In y (pend (do_rollback p w l past)) ->
  In y (pend w) \/ In y (map entry_msg (skipn past (x_hist (get_lp w l)))).
Proof. unfold do_rollback. destruct (drop_newer _ _) as [|[ref snap] older]; apply undo_all_pend. Qed.

Lemma do_rollback_good w l past (lo : N) : all_ok2 p w -> good w ->
  bnd (x_hist (get_lp w l)) past -> (k_gvt w <= Z.of_N lo)%Z ->
  (forall m, In (EProc m) (skipn past (x_hist (get_lp w l))) -> (lo <= tm m)%N) ->
  k_err (do_rollback p w l past) = false ->
  good (do_rollback p w l past) /\ x_hist (get_lp (do_rollback p w l past) l) = firstn past (x_hist (get_lp w l)).
Proof.
  intros Hok2 G Hbnd Hlo Hproc Herr. set (x := get_lp w l) in *. set (es := skipn past (x_hist x)).
  assert (Hl : l < length (k_lps w)).
  { destruct (Nat.lt_ge_cases l (length (k_lps w))) as [H|H]; [exact H|exfalso].
    unfold do_rollback, x, get_lp in Herr. rewrite (nth_overflow (k_lps w) lpx_dummy H) in Herr. discriminate. }
  destruct (get_ok2 p w l Hok2 Hl) as [Hlok Hlwf]. fold x in Hlok, Hlwf.
  destruct (drop_newer (x_logs x) past) as [|[ref snap] older] eqn:Hd; [unfold do_rollback in Herr; fold x in Herr; rewrite Hd in Herr; discriminate|].
  destruct (log_cut p x past ref snap older Hlok Hd) as (_ & _ & Hle & [Hr0 _] & _).
  rewrite (do_rollback_unfold p w l past ref snap older Hd) in *. fold x es in Herr |- *.
  destruct (undo_all_same es w) as ((E1 & _ & Eg) & Eh & _). cbn zeta in *. set (w1 := fold_left undo_entry es w) in *.
  assert (Hl1 : l < length (k_lps w1)) by (rewrite E1; exact Hl).
  split; [|rewrite get_lp_set by exact Hl1; reflexivity].
  assert (G1 : good w1).
  { destruct G as [S2 S3 S4]. constructor; [|rewrite Eh; exact S3|rewrite E1; exact S4]. intros y Hy. unfold ge. rewrite (proj1 Eg).
    destruct (undo_all_pend es w y Hy) as [H|H]; [exact (S2 y H)|]. apply in_map_iff in H. destruct H as (e & <- & He).
    assert (lo <= tm (entry_msg e))%N; [|lia]. destruct e as [m|m]; [|exact (Hproc m He)].
    exact (undone_marks_ge x past lo (conj Hlok Hlwf) Hbnd ltac:(lia) Hproc m He). }
  apply put_lp_good; [exact G1|]. intros _. destruct (get_time w l G Hl) as [Hs Hb]. fold x in Hs, Hb. split; cbn [x_hist x_bound].
  - rewrite (ptimes_split (x_hist x) past) in Hs. exact (sorted_app_l _ _ _ Hs).
  - intros t Ht. apply Hb. rewrite (ptimes_split (x_hist x) past). apply in_or_app. left. exact Ht.
Qed.

Lemma forward_good w l m : good w -> ge (k_gvt w) m ->
  (l < length (k_lps w) -> forall t, In t (ptimes (x_hist (get_lp w l))) -> (t <= tm m)%N) ->
  good (forward p ck w l m).
Proof.
  intros [S2 S3 S4] Hgm Hle0. rewrite forward_eq. cbn zeta. apply put_lp_good.
  - constructor; [|exact S3|exact S4]. intros x Hx. rewrite pend_sent in Hx. apply in_app_or in Hx. destruct Hx as [Hx|Hx]; [|exact (S2 x Hx)].
    apply in_rev, (in_map wm_ev) in Hx. rewrite news_ev in Hx. pose proof (H_time _ _ _ Hx). unfold ge, tm in *. cbn [k_gvt sent_state]. lia.
  - intros Hl. specialize (Hle0 Hl). rewrite Forall_forall in S4. destruct (S4 _ (get_lp_in w l Hl)) as [Hs Hb].
    unfold lp_time. cbn [x_hist x_bound]. rewrite !ptimes_app, ptimes_sent. cbn [app ptimes flat_map]. split.
    + apply sorted_app_le; assumption.
    + intros t Ht. apply in_app_or in Ht. destruct Ht as [Ht|[<-|[]]]; [specialize (Hle0 t Ht); unfold tm in *; lia|unfold tm; lia].
Qed.

(* The released prefix of a fossil collection: every processed message in it is strictly below the GVT *)
Theorem fossil_releases_below x gvt past ref snap older :
  StronglySorted N.le (ptimes (x_hist x)) ->
  newest_below gvt (rev (x_hist x)) (length (x_hist x)) = Some past ->
  StronglySorted decr (x_logs x) -> drop_newer (x_logs x) (past + 1) = (ref, snap) :: older ->
  forall m, In (EProc m) (firstn ref (x_hist x)) -> (Z.of_N (tm m) < gvt)%Z.
Proof using p ck H_time.
  intros Hs Hn Hlogs Hd m Hm. destruct (newest_below_spec gvt (x_hist x) past Hn) as (m0 & Hn0 & Ht0).
  pose proof (drop_newer_spec (x_logs x) (past + 1) Hlogs) as Hspec. rewrite Hd in Hspec. destruct Hspec as (_ & _ & Hle & _). cbn [fst] in Hle.
  assert (Hin : In (tm m) (ptimes (firstn (S past) (x_hist x)))).
  { apply ptimes_in. apply (in_firstn _ ref). rewrite firstn_firstn. replace (Nat.min ref (S past)) with ref by lia. exact Hm. }
  pose proof (ptimes_below (x_hist x) (S past) m0 Hs Hn0 ltac:(lia) (tm m) Hin). unfold tm in *. lia.
Qed.

Lemma fix_bound_time x : lp_time x -> lp_time (fix_bound x).
Proof. intros H. unfold fix_bound. destruct (x_hist x) eqn:E; [|exact H]. split; cbn; [constructor|intros t []]. Qed.

Lemma fossil_good w l : good w -> good (fossil_lp w l).
Proof.
  intros G. unfold fossil_lp. destruct (newest_below _ _ _) as [past|]; [|exact G]. destruct (drop_newer _ _) as [|[ref snap] older]; [destruct G; constructor; assumption|].
  apply put_lp_good; [exact G|]. intros Hl. destruct (get_time w l G Hl) as [Hs Hb]. split; cbn [x_hist x_bound].
  - rewrite (ptimes_split _ ref) in Hs. exact (sorted_app_r _ _ _ Hs).
  - intros t Ht. apply Hb. rewrite (ptimes_split _ ref). apply in_or_app. right. exact Ht.
Qed.
Lemma lazy_fossil_good w l : good w -> good (lazy_fossil_of w l).
Proof.
  intros G. unfold lazy_fossil_of. destruct (Nat.eqb _ _); [exact G|].
  apply put_lp_good; [apply fossil_good, G|]. intros Hl. apply fix_bound_time, get_time; [apply fossil_good, G|exact Hl].
Qed.

Lemma do_rollback_err w l past : k_err (do_rollback p w l past) = false -> k_err w = false.
Proof.
  unfold do_rollback. destruct (undo_all_same (skipn past (x_hist (get_lp w l))) w) as ((_ & E & _) & _).
  destruct (drop_newer _ _) as [|[ref snap] older]; cbn; [discriminate|]. cbn zeta in E. rewrite E. exact id.
Qed.
Lemma fossil_err w l : k_err (fossil_lp w l) = false -> k_err w = false.
Proof.
  unfold fossil_lp. destruct (newest_below _ _ _); [|auto]. destruct (drop_newer _ _) as [|[ref snap] older]; cbn; [discriminate|auto].
Qed.
Lemma lazy_fossil_err w l : k_err (lazy_fossil_of w l) = false -> k_err w = false.
Proof. unfold lazy_fossil_of. destruct (Nat.eqb _ _); [exact id|apply fossil_err]. Qed.
Lemma forward_err w l m : k_err (forward p ck w l m) = k_err w.
Proof. rewrite forward_eq. reflexivity. Qed.

Lemma hist_ok_last es : forall st pend, hist_ok p st pend es -> es <> [] -> exists a m, es = a ++ [EProc m].
Proof.
  induction es as [|e es IH]; intros st pend H Hne; [congruence|].
  destruct es as [|e2 es2].
  - destruct e as [m|m]; [cbn in H; destruct pend; discriminate|exists [], m; reflexivity].
  - assert (H' : exists st' pend', hist_ok p st' pend' (e2 :: es2)) by (destruct e as [m|m]; cbn [hist_ok] in H; [|destruct H as [_ H]]; eauto).
    destruct H' as (st' & pend' & H'). destruct (IH _ _ H' ltac:(discriminate)) as (a & m' & ->). exists (e :: a), m'. reflexivity.
Qed.

Lemma wf_last x : lp_ok p x -> lp_wf p x -> x_hist x = [] \/ exists m a, last_proc (x_hist x) = Some m /\ x_hist x = a ++ [EProc m].
Proof.
  intros Hok [Hh Hb]. destruct (x_hist x) as [|e0 h0] eqn:Eh; [left; reflexivity|right]. rewrite <- Eh in *.
  assert (G : exists a m, x_hist x = a ++ [EProc m]).
  { destruct (skipn (fst (base x)) (x_hist x)) as [|e es] eqn:Es.
    - (* the base is the end of the history, and it is a boundary *)
      pose proof (base_in p x Hok) as Hin. pose proof (base_le_len p x Hok) as Hle.
      pose proof (f_equal (@length _) Es) as Hlen. rewrite skipn_length in Hlen. cbn in Hlen.
      destruct (Hb _ Hin) as [H0|(m & Hm)]; [rewrite H0, Eh in Hlen; discriminate|].
      destruct (nth_error_split _ _ Hm) as (a & b & E & Ha). exists a, m. rewrite E at 1. f_equal.
      destruct b; [reflexivity|]. rewrite E, app_length in Hlen. cbn in Hlen. lia.
    - rewrite <- Es in Hh. destruct (hist_ok_last _ _ _ Hh ltac:(rewrite Es; discriminate)) as (a & m & E).
      exists (firstn (fst (base x)) (x_hist x) ++ a), m. rewrite <- app_assoc, <- E. symmetry. apply firstn_skipn. }
  destruct G as (a & m & E). exists m, a. split; [|exact E]. unfold last_proc. rewrite E, rev_app_distr. reflexivity.
Qed.

Lemma process_msg_err w : k_err (process_msg p ck w) = false -> k_err w = false.
Proof.
  unfold process_msg. destruct (extract_same w) as ((_ & Ex & _) & _). destruct (wq_extract w) as [[m|] w1]; cbn [snd] in Ex; [|rewrite Ex; auto].
  set (l := N.to_nat (e_dest (wm_ev m))). fold (lazy_fossil_of w1 l). rewrite <- Ex. intros H. apply (lazy_fossil_err w1 l). revert H.
  destruct (flag_add (k_flags (lazy_fossil_of w1 l)) (wm_id m) FLAG_PROC) as [o f].
  destruct (has o FLAG_ANTI).
  - cbn [put_lp set_lps k_err]. destruct (N.eqb o (FLAG_ANTI + FLAG_PROC)); [|intros H; exact H].
    destruct (anti_index _ _); [intros H; exact (do_rollback_err _ _ _ H)|discriminate].
  - rewrite forward_err. destruct (match last_proc _ with Some _ => _ | None => false end); intros H; [exact (do_rollback_err _ _ _ H)|exact H].
Qed.

Lemma process_msg_good w : all_ok2 p w -> good w -> k_err (process_msg p ck w) = false -> good (process_msg p ck w).
Proof.
  intros Hok Hg Herr. unfold process_msg in *.
  pose proof (extract_good w Hg) as Hex. destruct (extract_same w) as ((Elps & _ & Eg & _) & _).
  destruct (wq_extract w) as [[m|] w1]; cbn [snd] in *; [|exact Hex]. destruct Hex as [G1 Hgm].
  set (l := N.to_nat (e_dest (wm_ev m))) in *. fold (lazy_fossil_of w1 l) in Herr |- *.
  pose proof (lazy_fossil_ok2 p w1 l (all_ok2_of_lps p _ _ Elps Hok)) as Ok2. pose proof (lazy_fossil_good w1 l G1) as G2.
  assert (Eg2 : k_gvt (lazy_fossil_of w1 l) = k_gvt w).
  { rewrite <- Eg. unfold lazy_fossil_of. destruct (Nat.eqb _ _); [reflexivity|]. apply (fossil_same_gvt w1 l). }
  set (w2 := lazy_fossil_of w1 l) in *. destruct (flag_add (k_flags w2) (wm_id m) FLAG_PROC) as [o f].
  set (w3 := set_flags w2 f) in *.
  assert (Ok3 : all_ok2 p w3) by exact Ok2. assert (G3 : good w3) by (apply set_flags_good; exact G2).
  assert (Hgm3 : (k_gvt w3 <= Z.of_N (tm m))%Z) by (cbn [w3 set_flags k_gvt]; rewrite Eg2; exact Hgm).
  destruct (has o FLAG_ANTI).
  - (* a cancelled message *)
    cbn [put_lp set_lps k_err] in Herr.
    set (w4 := if N.eqb o (FLAG_ANTI + FLAG_PROC) then _ else w3) in *.
    assert (G4 : good w4).
    { unfold w4 in *. destruct (N.eqb o (FLAG_ANTI + FLAG_PROC)); [|exact G3].
      destruct (anti_index m (x_hist (get_lp w3 l))) as [past|] eqn:Ea; [|discriminate].
      assert (Hl : l < length (k_lps w3)).
      { destruct (Nat.lt_ge_cases l (length (k_lps w3))) as [H|H]; [exact H|]. unfold get_lp in Ea. rewrite (nth_overflow _ _ H) in Ea. discriminate. }
      destruct (do_rollback_good w3 l past (tm m) Ok3 G3 (proj1 (anti_index_spec m _ _ Ea)) Hgm3) as (Gr & _); [|exact Herr|exact Gr].
      apply anti_undone_ge; [apply (get_time w3 l G3 Hl)|exact Ea]. }
    apply put_lp_good; [exact G4|]. intros Hl. apply fix_bound_time, get_time; [exact G4|exact Hl].
  - (* an ordinary message: possibly a straggler *)
    rewrite forward_err in Herr. set (x := get_lp w3 l) in *.
    set (strag := match last_proc (x_hist x) with Some lastm => (Z.of_N (e_t (wm_ev m)) <=? x_bound x)%Z && wbefore (k_flags w3) m lastm | None => false end) in *.
    set (w4 := if strag then do_rollback p w3 l (straggler_index (k_flags w3) m (x_hist x)) else w3) in *.
    assert (G4 : good w4 /\ k_gvt w4 = k_gvt w3 /\
                 (l < length (k_lps w4) -> forall t, In t (ptimes (x_hist (get_lp w4 l))) -> (t <= tm m)%N)).
    { unfold w4 in *. destruct strag eqn:Es.
      - (* rollback: everything kept precedes the first entry the straggler is not before *)
        unfold strag in Es. destruct (last_proc (x_hist x)) as [lastm|] eqn:El; [|discriminate].
        apply andb_true_iff in Es. destruct Es as [_ Ew].
        destruct (straggler_index_spec (k_flags w3) m (x_hist x) lastm El Ew) as [Habove Hstop]. cbn zeta in Habove, Hstop.
        set (k := straggler_index (k_flags w3) m (x_hist x)) in *.
        destruct (do_rollback_good w3 l k (tm m) Ok3 G3 (proj1 (straggler_index_bnd _ _ _)) Hgm3) as (Gr & Ehist); [|exact Herr|].
        + intros m' Hm'. apply (wbefore_le (k_flags w3)), Habove, Hm'.
        + split; [exact Gr|]. split; [apply (do_rollback_same_gvt p w3 l k)|]. rewrite (proj1 (proj2 (proj2 (proj2 (proj2 (do_rollback_same_gvt p w3 l k)))))).
          intros Hl t Ht. rewrite Ehist in Ht. fold x in Ht.
          destruct Hstop as [Hk0|(e & Hne & Hwe)]; [rewrite Hk0 in Ht; destruct Ht|].
          assert (Hkpos : 0 < k) by (destruct k; [destruct Ht|lia]).
          pose proof (ptimes_below (x_hist x) k e (proj1 (get_time w3 l G3 Hl)) Hne Hkpos t Ht) as Hte.
          destruct (N.le_gt_cases (tm e) (tm m)) as [Hle|Hgt]; [lia|]. rewrite (wbefore_lt (k_flags w3) m e Hgt) in Hwe. discriminate.
      - (* no rollback: the message is above the bound, or not before the last processed one *)
        split; [exact G3|]. split; [reflexivity|]. intros Hl t Ht. fold x in Ht.
        destruct (get_time w3 l G3 Hl) as [Hsorted Hbound]. destruct (get_ok2 p w3 l Ok3 Hl) as [Hlo Hlw]. fold x in Hsorted, Hbound, Hlo, Hlw.
        destruct (wf_last x Hlo Hlw) as [Hnil|(lastm & a & El & Ea)]; [rewrite Hnil in Ht; destruct Ht|].
        unfold strag in Es. rewrite El in Es. apply andb_false_iff in Es.
        assert (Htl : (t <= tm lastm)%N).
        { rewrite Ea, ptimes_app in Hsorted, Ht. apply in_app_or in Ht. destruct Ht as [Ht|[<-|[]]]; [|apply N.le_refl].
          apply (sorted_app_cross N.le _ _ t (tm lastm) Hsorted Ht). left. reflexivity. }
        destruct Es as [Eb|Ew].
        + apply Z.leb_gt in Eb. specialize (Hbound (tm lastm) ltac:(rewrite Ea, ptimes_app; apply in_or_app; right; left; reflexivity)). unfold tm in *. lia.
        + destruct (N.le_gt_cases (tm lastm) (tm m)) as [Hle|Hgt]; [lia|]. rewrite (wbefore_lt (k_flags w3) m lastm Hgt) in Ew. discriminate. }
    destruct G4 as (G4 & Eg4 & Hle4).
    apply forward_good; [exact G4|unfold ge; rewrite Eg4; exact Hgm3|exact Hle4].
Qed.

Lemma hold_step_good w m w1 : good w -> wq_extract w = (Some m, w1) -> good (set_held w1 (k_held w1 ++ [Some m])).
Proof.
  intros G E. pose proof (extract_good w G) as Hex. rewrite E in Hex. destruct Hex as [[_ S3 _] _].
  exact (good_moved w _ G (hold_step_moved w m w1 E) S3).
Qed.
Lemma unhold_good i w : good w -> good (unhold i w).
Proof.
  intros G. apply (good_moved w _ G (unhold_moved i w)).
  unfold unhold. destruct (k_held w); [apply G|]. destruct (nth _ _ None); apply G.
Qed.
Lemma unhold_all_good w : good w -> good (unhold_all w).
Proof.
  intros G. apply (good_moved w _ G (unhold_all_moved w)).
  unfold unhold_all. cbn [set_held k_heap]. rewrite (proj1 (proj2 (unhold_all_fold (k_held w) w))). apply G.
Qed.

Lemma min_held_spec hs : forall m0 t, min_held hs m0 = Some t ->
  (forall t0, m0 = Some t0 -> (t <= t0)%N) /\ forall x, In x (heldl hs) -> (t <= tm x)%N.
Proof.
  induction hs as [|h hs IH]; intros m0 t H; cbn [min_held fold_left] in H.
  - subst m0. split; [intros t0 E; injection E as <-; apply N.le_refl|intros x []].
  - fold (min_held hs) in H. destruct h as [m|]; [|exact (IH _ _ H)].
    destruct (IH _ _ H) as [I1 I2]. destruct m0 as [t0|]; specialize (I1 _ eq_refl); (split; [intros t1 E|intros x [<-|Hx]; [|apply I2; exact Hx]]);
      try discriminate; try injection E as <-; unfold tm in *; lia.
Qed.

Lemma announce_good d w : good w -> good (announce d w).
Proof.
  intros H. unfold announce, wq_peek.
  pose proof (transfer_good w H) as [S2 S3 S4].
  set (w1 := wq_transfer w) in *.
  destruct (min_held (k_held w1) (match k_heap w1 with [] => None | m :: _ => Some (e_t (wm_ev m)) end)) as [t|] eqn:Em; [|constructor; assumption].
  destruct (_ || _); constructor; try assumption. cbn [k_gvt].
  destruct (min_held_spec _ _ _ Em) as [M1 M2].
  intros x Hx. apply in_app_or in Hx. destruct Hx as [[]|Hx]. apply in_app_or in Hx. unfold ge. cbn [k_heap k_held] in Hx. assert (Ht : (t <= tm x)%N); [|lia].
  destruct Hx as [Hx|Hx]; [|apply M2; exact Hx].
  destruct (k_heap w1) as [|r rest] eqn:Eh; [destruct Hx|]. specialize (M1 _ eq_refl).
  apply In_nth with (d := wm_dummy) in Hx. destruct Hx as (k & Hk & Hn).
  pose proof (theap_root_min wmsg wm_dummy tm (r :: rest) S3 k Hk) as Hr. rewrite Hn in Hr. cbn [nth] in Hr. unfold tm in *. lia.
Qed.
Lemma announce_lps_err d w : k_lps (announce d w) = k_lps w /\ k_err (announce d w) = k_err w.
Proof. unfold announce, wq_peek. destruct (min_held _ _); [|split; reflexivity]. destruct (_ || _); split; reflexivity. Qed.

Lemma safe_same w w' : k_lps w' = k_lps w -> k_err w' = k_err w -> (good w -> good w') -> safe w -> safe w'.
Proof. intros El Ee Hg [Hok Hc]. split; [exact (all_ok2_of_lps p _ _ El Hok)|]. rewrite Ee. intros He. exact (Hg (Hc He)). Qed.
Lemma safe_moved w w' : moved w w' -> (good w -> good w') -> safe w -> safe w'.
Proof. intros (_ & (El & Ee & _) & _). apply safe_same; assumption. Qed.

Lemma init_lp_time w l : Forall lp_time (k_lps w) -> Forall lp_time (k_lps (init_lp p w l)).
Proof.
  intros Ht. rewrite init_lp_eq. cbn zeta. apply Forall_app. split; [exact Ht|]. constructor; [|constructor].
  split; cbn [x_hist x_bound]; rewrite ptimes_app, ptimes_sent; cbn; [repeat constructor|]. intros t [<-|[]]. unfold tm. cbn. lia.
Qed.

Lemma w_init_safe : safe (w_init p).
Proof.
  assert (H : all_ok2 p (w_init p) /\ k_gvt (w_init p) = 0%Z /\ k_heap (w_init p) = [] /\ Forall lp_time (k_lps (w_init p))).
  { apply (w_init_keeps p (fun w => all_ok2 p w /\ k_gvt w = 0%Z /\ k_heap w = [] /\ Forall lp_time (k_lps w))); [repeat split; constructor|].
    intros w (A & B & C & D). split; [apply init_lp_ok2, A|]. rewrite init_lp_eq. cbn zeta. repeat split; [exact B|exact C|].
    pose proof (init_lp_time w (length (k_lps w)) D) as T. rewrite init_lp_eq in T. exact T. }
  destruct H as (A & B & C & D). split; [exact A|]. intros _. constructor; [|rewrite C; intros k Hk; cbn in Hk; lia|exact D].
  intros m _. unfold ge. rewrite B. lia.
Qed.

Theorem worker_safe (ops : list wop) : safe (fold_left (wstep p ck) ops (w_init p)).
Proof.
  apply script_keeps.
  - intros w [Hok Hc]. split; [apply process_msg_ok2; exact Hok|]. intros He.
    apply process_msg_good; [exact Hok|apply Hc, process_msg_err, He|exact He].
  - intros w. apply (safe_moved w _ (transfer_moved w)), transfer_good.
  - intros w m w1 H E. apply (safe_moved w _ (hold_step_moved w m w1 E)); [|exact H]. intros G. exact (hold_step_good w m w1 G E).
  - intros i w. apply (safe_moved w _ (unhold_moved i w)), unhold_good.
  - intros w. apply (safe_moved w _ (unhold_all_moved w)), unhold_all_good.
  - intros d w. apply safe_same; [apply announce_lps_err|apply announce_lps_err|apply announce_good].
  - exact w_init_safe.
Qed.

End Safety.

(* the interpreter application never schedules into the past: the hypothesis is discharged for every program *)
Lemma make_outs_time p me now a os : forall j e, In e (make_outs p me now a j os) -> (now <= e_t e)%N.
Proof.
  induction os as [|o r IH]; intros j e H; cbn [make_outs] in H; [destruct H|].
  destruct H as [<-|H]; [cbn; lia|apply (IH _ _ H)].
Qed.

Lemma app_handle_time p ev st e : In e (snd (handle p ev st)) -> (e_t ev <= e_t e)%N.
Proof.
  unfold handle. destruct (can_end p (e_dest ev) st); [intros []|].
  destruct (fold_left _ (r_draws _) _) as [a3 g]. destruct (fold_left _ (r_mem _) _) as [a4 sl]. cbn [snd].
  apply make_outs_time.
Qed.

(* the three clauses of the file header, for every program, checkpoint interval and script, as long as the error flag is not raised *)
Theorem worker_safe_app (p : prog) (ck : nat) (ops : list wop) : safe p (fold_left (wstep p ck) ops (w_init p)).
Proof. apply worker_safe. intros ev st e. apply app_handle_time. Qed.
