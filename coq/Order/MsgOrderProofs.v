(* C16: the event order of msg.h is the lexicographic order of the message content. *)
From Coq Require Import List ZArith Bool Lia.
From RS Require Import Base.Lex Order.MsgOrderDefs.
Import ListNotations.
Local Open Scope Z_scope.

(* msg.h orders the cancellation bit, the type and the bytes downwards: upwards on the negated values *)
Lemma ltb_opp x y : (- x <? - y) = (y <? x).
Proof. destruct (Z.ltb_spec (- x) (- y)), (Z.ltb_spec y x); try reflexivity; lia. Qed.
Lemma eqb_opp x y : (- x =? - y) = (x =? y).
Proof. destruct (Z.eqb_spec (- x) (- y)), (Z.eqb_spec x y); try reflexivity; lia. Qed.

Lemma memcmp_gt_lex a : forall b, length a = length b ->
  memcmp_gt a b = lexltb (map Z.opp a) (map Z.opp b).
Proof.
  induction a as [|x a IH]; intros [|y b] Hl; try discriminate Hl; [reflexivity|].
  cbn [map memcmp_gt]. rewrite lexltb_cons, ltb_opp, eqb_opp, <- IH by (injection Hl as Hl; exact Hl). reflexivity.
Qed.

Lemma payload_length m : wf_msg m -> length (payload m) = Z.to_nat (m_plsize m).
Proof. intros [_ H]. unfold payload. apply firstn_length_le. exact H. Qed.

Lemma land1_mod2 f : Z.land f 1 = f mod 2.
Proof. apply (Z.land_ones f 1). lia. Qed.

Lemma anti_bit_range m : anti_bit m = 0 \/ anti_bit m = 1.
Proof.
  unfold anti_bit. rewrite land1_mod2.
  pose proof (Z.mod_pos_bound (m_flags m) 2 ltac:(lia)). lia.
Qed.

Theorem before_is_lex a b : wf_msg a -> wf_msg b ->
  before a b = lexltb (content a) (content b).
Proof.
  intros Ha Hb. unfold before, before_ext, content. cbn [app]. rewrite !lexltb_cons, !ltb_opp, !eqb_opp.
  destruct (Z.eqb_spec (m_t a) (m_t b)) as [->|_]; [rewrite Z.ltb_irrefl|destruct (m_t a <? m_t b); reflexivity].
  cbn [orb andb].
  destruct (anti_bit a =? anti_bit b); cbn [negb]; [|reflexivity].
  destruct (m_type a =? m_type b); cbn [negb]; [|reflexivity].
  destruct (Z.eqb_spec (m_plsize a) (m_plsize b)) as [Es|_]; cbn [negb]; [|reflexivity].
  apply memcmp_gt_lex. rewrite !payload_length, Es by assumption. reflexivity.
Qed.

Section Laws.
Variables a b c : msg.
Hypothesis Wa : wf_msg a.
Hypothesis Wb : wf_msg b.
Hypothesis Wc : wf_msg c.

Lemma before_irrefl_l : before a a = false.
Proof. rewrite before_is_lex by assumption. apply lexltb_irrefl. Qed.

Lemma before_asym_l : before a b = true -> before b a = false.
Proof. rewrite !before_is_lex by assumption. apply lexltb_asym. Qed.

Lemma before_trans_l : before a b = true -> before b c = true -> before a c = true.
Proof. rewrite !before_is_lex by assumption. apply lexltb_trans. Qed.

Lemma incomparable_iff_same_content_l :
  (before a b = false /\ before b a = false) <-> content a = content b.
Proof. rewrite !before_is_lex by assumption. apply lexltb_incomp_iff. Qed.

End Laws.

(* incomparability is equality of content, hence transitive *)
Lemma incomparable_trans_l a b c : wf_msg a -> wf_msg b -> wf_msg c ->
  before a b = false -> before b a = false -> before b c = false -> before c b = false ->
  before a c = false /\ before c a = false.
Proof.
  intros Wa Wb Wc H1 H2 H3 H4. apply (incomparable_iff_same_content_l a c Wa Wc). transitivity (content b).
  - apply (incomparable_iff_same_content_l a b Wa Wb). split; assumption.
  - apply (incomparable_iff_same_content_l b c Wb Wc). split; assumption.
Qed.

(* The order depends on the content only: two pairs of messages with pairwise equal content
   (timestamp, cancellation bit, type, payload size, first payload-size payload bytes) compare
   equally, whatever their link pointer, destination, sequence number, sender fields, the
   other bits of the flag word and the bytes beyond the payload size are. *)
Lemma before_content_only_l a a' b b' :
  wf_msg a -> wf_msg a' -> wf_msg b -> wf_msg b' ->
  content a = content a' -> content b = content b' -> before a b = before a' b'.
Proof. intros Wa Wa' Wb Wb' Ea Eb. rewrite !before_is_lex by assumption. rewrite Ea, Eb. reflexivity. Qed.

Lemma content_eq_fields a b : wf_msg a -> wf_msg b ->
  (content a = content b <->
   m_t a = m_t b /\ anti_bit a = anti_bit b /\ m_type a = m_type b /\ m_plsize a = m_plsize b /\
   payload a = payload b).
Proof.
  intros _ _. unfold content. cbn [app]. split.
  - intros H. injection H as H1 H2 H3 H4 H5. repeat split; try lia.
    apply (f_equal (map Z.opp)) in H5. rewrite !map_map in H5.
    rewrite !(map_ext _ (fun x => x) Z.opp_involutive), !map_id in H5. exact H5.
  - intros (H1 & H2 & H3 & H4 & H5). rewrite H1, H2, H3, H4, H5. reflexivity.
Qed.

(* the queue comparator is the same order when the cached timestamp is the message's *)
Lemma q_before_is_before x y : q_t x = m_t (q_m x) -> q_t y = m_t (q_m y) ->
  q_before x y = before (q_m x) (q_m y).
Proof. intros Hx Hy. unfold q_before, before. rewrite Hx, Hy. reflexivity. Qed.

(* non-vacuity: concrete well-formed messages with a tie on every key but the last byte *)
Definition ex_a := mkMsg 11 3 7 2 0 0 5 9 3 [1;2;3;77].
Definition ex_b := mkMsg 99 4 7 0 1 1 6 9 3 [1;2;4].
Example ex_wf : wf_msg ex_a /\ wf_msg ex_b.
Proof. unfold wf_msg; cbn; lia. Qed.
Example ex_order : before ex_b ex_a = true /\ before ex_a ex_b = false.
Proof. split; reflexivity. Qed.
