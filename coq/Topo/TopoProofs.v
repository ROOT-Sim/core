(* C19: receivers are valid and confirmed by IsNeighbor; CountDirections counts the fixed directions with a
   receiver on grids and rings; DIRECTION_RANDOM finds a neighbour whenever one exists on grids, rings and the
   star (nothing is proved of it for the mesh, whose redraw loop is bounded by fuel, nor for the graph). *)
From Coq Require Import NArith ZArith List Bool Lia Permutation.
From RS Require Import Rng.RngDefs Rng.RngProofs Topo.TopoDefs.
Import ListNotations.
Local Open Scope N_scope.

Definition P32 : N := 4294967296.

Definition is_grid (g : geom) : bool := match g with Hexagon | Square | Torus => true | _ => false end.

Definition topo_wf (t : topo) : Prop :=
  0 < t_regions t /\ t_regions t < P32 /\
  (is_grid (t_geom t) = true -> 0 < t_w t /\ 0 < t_h t /\ t_regions t = t_w t * t_h t) /\
  (t_geom t = Graph -> Forall (Forall (fun x => x < t_regions t)) (t_adj t)).

(* The neighbour functions are chains of [if dir =? D then v else ...]: one step of such a chain. *)
Lemma if_eqb_some {A} (d k : N) (x y : option A) r (P : Prop) :
  (d = k -> x = Some r -> P) -> (y = Some r -> P) -> (if d =? k then x else y) = Some r -> P.
Proof. destruct (N.eqb_spec d k); auto. Qed.

Section Grid.
Variable t : topo.
Hypothesis Hw : 0 < t_w t.
Hypothesis Hh : 0 < t_h t.
Hypothesis Hreg : t_regions t = t_w t * t_h t.
Hypothesis H32 : t_regions t < P32.
Variable from : N.
Hypothesis Hfrom : from < t_regions t.
Set Default Proof Using "Hw Hh Hreg H32 Hfrom".

Lemma cell_lt x y : x < t_w t -> y < t_h t -> u32 (y * t_w t + x) < t_regions t.
Proof.
  intros Hx Hy. assert (y * t_w t + x < t_regions t) by nia.
  unfold u32. rewrite N.mod_small; [assumption|]. eapply N.lt_trans; eassumption.
Qed.

Lemma in_grid_some x y r : in_grid t x y = Some r -> r < t_regions t.
Proof.
  unfold in_grid. destruct (N.ltb_spec x (t_w t)); destruct (N.ltb_spec y (t_h t)); try discriminate.
  intros E. injection E as <-. apply cell_lt; assumption.
Qed.

Lemma coords_spec : coords t from = (from mod t_w t, from / t_w t) /\ from mod t_w t < t_w t /\ from / t_w t < t_h t.
Proof.
  unfold coords.
  assert (Hw0 : t_w t <> 0) by apply N.neq_0_lt_0, Hw.
  pose proof (N.mul_div_le from _ Hw0) as Hq. rewrite N.mul_comm in Hq.
  assert (E : forall a, a <= from -> u32 a = a).
  { intros a Ha. apply N.mod_small. change W32 with P32. lia. }
  rewrite (E (from / t_w t)).
  - rewrite E by apply N.le_sub_l. rewrite (N.mul_comm _ (t_w t)), <- N.mod_eq by exact Hw0.
    repeat split; [apply N.mod_lt, Hw0|]. apply N.div_lt_upper_bound; [exact Hw0|]. rewrite <- Hreg. exact Hfrom.
  - clear - Hq Hw. nia.
Qed.

Lemma nb_hexagon_some d r : nb_hexagon t from d = Some r -> In d hexagon_dirs /\ r < t_regions t.
Proof.
  unfold nb_hexagon. destruct (coords t from) as [x y].
  repeat (apply if_eqb_some; [intros -> E; split; [cbn; auto 7|exact (in_grid_some _ _ _ E)]|]).
  discriminate.
Qed.

Lemma nb_square_some d r : nb_square t from d = Some r -> In d square_dirs /\ r < t_regions t.
Proof.
  unfold nb_square. destruct (coords t from) as [x y].
  repeat (apply if_eqb_some; [intros -> E; split; [cbn; auto 7|exact (in_grid_some _ _ _ E)]|]).
  discriminate.
Qed.

Lemma nb_torus_some d r : nb_torus t from d = Some r -> In d square_dirs /\ r < t_regions t.
Proof.
  unfold nb_torus. destruct coords_spec as (-> & Hx & Hy).
  repeat (apply if_eqb_some;
    [intros -> E; split; [cbn; auto 7|injection E as <-; apply cell_lt; try assumption; apply N.mod_lt, N.neq_0_lt_0; assumption]|]).
  discriminate.
Qed.
End Grid.
Set Default Proof Using "Type".

Lemma first_valid_some f l r : first_valid f l = Some r -> exists d, In d l /\ f d = Some r.
Proof.
  induction l as [|d l IH]; cbn; [discriminate|].
  destruct (f d) eqn:E.
  - intros H. injection H as <-. exists d. auto.
  - intros H. destruct (IH H) as (d' & Hin & Hd). exists d'. auto.
Qed.

Lemma first_valid_finds f l d x : In d l -> f d = Some x -> exists r, first_valid f l = Some r.
Proof.
  induction l as [|e l IH]; cbn; [tauto|].
  intros [->|Hin] E.
  - rewrite E. eauto.
  - destruct (f e); eauto.
Qed.

Lemma draw_defined s : rng_wf s -> exists b s', draw s = Some (b, s') /\ b < ONE_BITS /\ rng_wf s'.
Proof.
  intros Hs. unfold draw. pose proof (random_u64_wf s Hs) as [Hu Hs'].
  destruct (random_u64 s) as [u s']. cbn [fst snd] in *.
  destruct (random_bits_spec u Hu) as (b & E & Hb & _). rewrite E. eauto.
Qed.

Lemma set_nth_length l : forall i v, length (set_nth l i v) = length l.
Proof. induction l as [|x l IH]; intros [|i] v; cbn; auto. Qed.

Lemma nth_set_nth_eq l : forall i v, (i < length l)%nat -> nth i (set_nth l i v) 0 = v.
Proof. induction l as [|x l IH]; intros [|i] v H; cbn in *; try lia; auto. apply IH. lia. Qed.

Lemma nth_set_nth_neq l : forall i j v, i <> j -> nth i (set_nth l j v) 0 = nth i l 0.
Proof.
  induction l as [|x l IH]; intros [|i] [|j] v H; cbn; try reflexivity; try lia.
  apply IH. lia.
Qed.

Lemma set_nth_perm l : forall i v, (i < length l)%nat -> Permutation (v :: l) (nth i l 0 :: set_nth l i v).
Proof.
  induction l as [|x l IH]; intros [|i] v H; cbn in *; try lia.
  - apply perm_swap.
  - eapply perm_trans; [apply perm_swap|]. eapply perm_trans; [|apply perm_swap]. apply perm_skip, IH. lia.
Qed.

(* from [a :: l] to [b :: set_nth l j a] to [a :: swap l i j]: cell i still holds a after the first write *)
Lemma swap_perm l i j : (i < length l)%nat -> (j < length l)%nat -> Permutation (swap l i j) l.
Proof.
  intros Hi Hj. unfold swap.
  pose proof (set_nth_perm l j (nth i l 0) Hj) as P1.
  pose proof (set_nth_perm (set_nth l j (nth i l 0)) i (nth j l 0)) as P2.
  assert (E : nth i (set_nth l j (nth i l 0)) 0 = nth i l 0).
  { destruct (Nat.eq_dec i j) as [->|Hij]; [apply nth_set_nth_eq, Hj|apply nth_set_nth_neq, Hij]. }
  rewrite set_nth_length, E in P2.
  apply Permutation_sym, Permutation_cons_inv with (nth i l 0). exact (perm_trans P1 (P2 Hi)).
Qed.

Lemma shuffle_perm steps : forall i l s, rng_wf s -> (i + steps < length l)%nat \/ steps = O ->
  exists l' s', shuffle steps i l s = Some (l', s') /\ Permutation l' l /\ rng_wf s'.
Proof.
  induction steps as [|k IH]; intros i l s Hs Hb; cbn [shuffle].
  - exists l, s. auto.
  - destruct Hb as [Hb|Hb]; [|discriminate].
    destruct (draw_defined s Hs) as (b & s' & E & Hbb & Hs'). rewrite E.
    pose proof (random_range_in_bounds b (Z.of_nat i) (Z.of_nat (length l) - 1) Hbb ltac:(lia)) as Hr.
    set (j := Z.to_nat (random_range b (Z.of_nat i) (Z.of_nat (length l) - 1))).
    assert (Hj : (j < length l)%nat) by (unfold j; lia).
    pose proof (swap_perm l i j ltac:(lia) Hj) as Hp.
    destruct (IH (S i) (swap l i j) s' Hs') as (l' & s'' & E' & Hp' & Hs'').
    { rewrite (Permutation_length Hp). destruct k; [right; reflexivity|left; lia]. }
    exists l', s''. split; [exact E'|]. split; [|exact Hs'']. eapply Permutation_trans; eassumption.
Qed.

Lemma random_grid_spec f dirs s : rng_wf s -> dirs <> [] ->
  exists o s', random_grid f dirs s = Some (o, s') /\ rng_wf s' /\
    (forall r, o = Some r -> exists d, In d dirs /\ f d = Some r) /\
    ((exists d x, In d dirs /\ f d = Some x) -> exists r, o = Some r).
Proof.
  intros Hs Hne. unfold random_grid.
  destruct (shuffle_perm (length dirs - 1) 0 dirs s Hs) as (l & s' & E & Hp & Hs').
  { destruct dirs; [congruence|]. cbn. destruct dirs; [right; reflexivity|left; cbn; lia]. }
  rewrite E. exists (first_valid f l), s'. split; [reflexivity|]. split; [exact Hs'|]. split.
  - intros r Hr. destruct (first_valid_some f l r Hr) as (d & Hin & Hd).
    exists d. split; [|exact Hd]. eapply Permutation_in; eassumption.
  - intros (d & x & Hin & Hd). apply (first_valid_finds f l d x); [|exact Hd].
    eapply Permutation_in; [apply Permutation_sym; exact Hp|exact Hin].
Qed.

Lemma hexagon_dirs_incl : incl hexagon_dirs [0;1;2;3;4;5;6;7].
Proof. intro. cbn. tauto. Qed.

(* the grid branches of GetReceiver and IsNeighbor, for any neighbour function whose receivers are valid *)
Lemma grid_receiver_valid f dirs all n s dir r s' : rng_wf s -> dirs <> [] -> incl dirs all ->
  (forall d x, f d = Some x -> In d dirs /\ x < n) ->
  (if dir =? D_RANDOM then random_grid f dirs s else Some (f dir, s)) = Some (Some r, s') ->
  r < n /\ existsb (fun d => opt_is (f d) r) all = true.
Proof.
  intros Hs Hne Hall Hf H.
  assert (exists d, f d = Some r) as (d & E).
  { destruct (dir =? D_RANDOM).
    - destruct (random_grid_spec f dirs s Hs Hne) as (o & s1 & E & _ & Ho & _).
      rewrite E in H. injection H as -> _. destruct (Ho r eq_refl) as (d & _ & Hd). eauto.
    - injection H as H _. eauto. }
  destruct (Hf d r E) as [Hin Hr]. split; [exact Hr|].
  apply existsb_exists. exists d. split; [exact (Hall d Hin)|]. rewrite E. apply N.eqb_refl.
Qed.

Lemma mesh_pick_spec fuel : forall regions from s o s', 0 < regions -> rng_wf s ->
  mesh_pick fuel regions from s = Some (o, s') ->
  exists r, o = Some r /\ r < regions /\ r <> from.
Proof.
  induction fuel as [|k IH]; intros regions from s o s' Hr Hs; cbn [mesh_pick]; [discriminate|].
  destruct (draw_defined s Hs) as (b & s1 & E & Hb & Hs1). rewrite E.
  destruct (N.eqb_spec (floor_mul b regions) from) as [Heq|Hne].
  - apply IH; assumption.
  - intros H. injection H as <- <-. eexists. split; [reflexivity|]. split; [|exact Hne].
    apply floor_mul_lt; assumption.
Qed.

(* the leaf the centre of a star draws *)
Lemma star_pick n b : 1 < n -> b < ONE_BITS -> 0 < Z.to_N (random_range b 1 (Z.of_N n - 1)) < n.
Proof. intros Hn Hb. pose proof (random_range_in_bounds b 1 (Z.of_N n - 1) Hb ltac:(lia)). lia. Qed.

Theorem receiver_valid fuel pick t s from dir r s' :
  topo_wf t -> rng_wf s ->
  (t_geom t = Graph -> (N.to_nat pick < length (nth (N.to_nat from) (t_adj t) []))%nat) ->
  get_receiver fuel pick t s from dir = Some (Some r, s') ->
  r < t_regions t /\ is_neighbor t from r = true.
Proof.
  intros (Hr0 & H32 & Hgrid & Hgraph) Hs Hpick. unfold get_receiver.
  destruct (N.leb_spec (t_regions t) from) as [|Hfrom]; [discriminate|].
  unfold is_neighbor. destruct (t_geom t).
  - destruct (Hgrid eq_refl) as (Hw & Hh & Hreg).
    apply grid_receiver_valid; [exact Hs|discriminate|exact hexagon_dirs_incl|].
    intros d x. apply nb_hexagon_some; assumption.
  - destruct (Hgrid eq_refl) as (Hw & Hh & Hreg).
    apply grid_receiver_valid; [exact Hs|discriminate|apply incl_refl|].
    intros d x. apply nb_square_some; assumption.
  - destruct (Hgrid eq_refl) as (Hw & Hh & Hreg).
    apply grid_receiver_valid; [exact Hs|discriminate|apply incl_refl|].
    intros d x. apply nb_torus_some; assumption.
  - (* ring *) unfold nb_ring. destruct ((dir =? D_E) || (dir =? D_RANDOM)); [|discriminate].
    intros H. injection H as <- <-. split; [apply N.mod_lt, N.neq_0_lt_0, Hr0|]. cbn. apply N.eqb_refl.
  - (* bidring *)
    assert (Hfix : forall d x, nb_bidring_fixed t from d = Some x ->
              x < t_regions t /\ opt_is (nb_bidring_fixed t from D_E) x || opt_is (nb_bidring_fixed t from D_W) x = true).
    { intros d x. unfold nb_bidring_fixed at 1.
      repeat (apply if_eqb_some; [intros -> E; injection E as <-; split; [apply N.mod_lt, N.neq_0_lt_0, Hr0|];
                                  cbn; rewrite N.eqb_refl; auto using orb_true_r|]).
      discriminate. }
    destruct (dir =? D_RANDOM).
    + destruct (draw s) as [[b s1]|]; [|discriminate].
      intros H. injection H as H <-. eapply Hfix; eassumption.
    + intros H. injection H as H <-. eapply Hfix; eassumption.
  - (* star *) destruct (negb (dir =? D_RANDOM)); [discriminate|].
    destruct (N.eqb_spec from 0) as [->|Hf0].
    + destruct (N.eqb_spec (t_regions t) 1) as [|Hr1]; [discriminate|].
      destruct (draw_defined s Hs) as (b & s1 & E & Hb & _). rewrite E.
      intros H. injection H as <- <-.
      destruct (star_pick (t_regions t) b ltac:(clear - Hr0 Hr1; lia) Hb) as [Hv0 Hvn]. split; [exact Hvn|].
      apply N.neq_0_lt_0, N.eqb_neq in Hv0. apply N.ltb_lt in Hvn. rewrite Hv0, Hvn. reflexivity.
    + intros H. injection H as <- <-. split; [exact Hr0|].
      apply N.ltb_lt in Hfrom. rewrite Hfrom. reflexivity.
  - (* fully connected mesh *) destruct (negb (dir =? D_RANDOM)); [discriminate|].
    destruct (N.eqb_spec (t_regions t) 1); [discriminate|].
    intros H. destruct (mesh_pick_spec _ _ _ _ _ _ Hr0 Hs H) as (x & Ex & Hx & _). injection Ex as <-.
    split; [exact Hx|]. apply N.ltb_lt in Hfrom, Hx. rewrite Hfrom, Hx. reflexivity.
  - (* graph *) destruct (negb (dir =? D_RANDOM)); [discriminate|].
    specialize (Hpick eq_refl). specialize (Hgraph eq_refl).
    assert (Hall : Forall (fun x => x < t_regions t) (nth (N.to_nat from) (t_adj t) [])).
    { destruct (nth_in_or_default (N.to_nat from) (t_adj t) []) as [Hi| ->]; [|constructor].
      rewrite Forall_forall in Hgraph. apply Hgraph, Hi. }
    set (adj := nth (N.to_nat from) (t_adj t) []) in *.
    destruct adj as [|a0 adj'] eqn:Ea; [discriminate|]. rewrite <- Ea in *.
    destruct (draw s) as [[b s1]|]; [|discriminate].
    intros H. injection H as <- <-.
    assert (Hin : In (nth (N.to_nat pick) adj 0) adj) by (apply nth_In; exact Hpick).
    split.
    + rewrite Forall_forall in Hall. apply Hall, Hin.
    + apply existsb_exists. eexists. split; [exact Hin|]. apply N.eqb_refl.
Qed.

Definition fixed_dirs : list N := [0;1;2;3;4;5;6;7].

Definition fixed_receiver (t : topo) (from d : N) : option N :=
  match t_geom t with
  | Hexagon => nb_hexagon t from d
  | Square => nb_square t from d
  | Torus => nb_torus t from d
  | Ring => nb_ring t from d
  | Bidring => nb_bidring_fixed t from d
  | _ => None
  end.

(* Only the first five cases say something: for the star, the mesh and the graph the right-hand side is the
   definition of count_directions. *)
Theorem count_consistent_grids_rings t from :
  match t_geom t with
  | Hexagon | Square | Torus | Ring | Bidring =>
      count_directions t from = count_valid (fixed_receiver t from) fixed_dirs
  | Star => count_directions t from = if from =? 0 then t_regions t - 1 else 1
  | Fcmesh => count_directions t from = t_regions t - 1
  | Graph => count_directions t from = N.of_nat (length (nth (N.to_nat from) (t_adj t) []))
  end.
Proof.
  unfold count_directions, fixed_receiver. destruct (t_geom t); try reflexivity;
    unfold count_valid, fixed_dirs, nb_square, nb_torus, nb_ring, nb_bidring_fixed;
    try destruct (coords t from) as [x y]; cbn; reflexivity.
Qed.

Theorem random_finds_neighbor_grid fuel pick t s from :
  topo_wf t -> rng_wf s -> from < t_regions t -> is_grid (t_geom t) = true ->
  (exists d x, In d fixed_dirs /\ fixed_receiver t from d = Some x) ->
  exists r s', get_receiver fuel pick t s from D_RANDOM = Some (Some r, s').
Proof.
  intros (_ & H32 & Hgrid & _) Hs Hfrom Hg (d & x & _ & Hx). destruct (Hgrid Hg) as (Hw & Hh & Hreg).
  unfold get_receiver. rewrite (proj2 (N.leb_gt _ _) Hfrom). unfold fixed_receiver in Hx.
  assert (Hsub : forall f dirs, (forall d x, f d = Some x -> In d dirs /\ x < t_regions t) -> f d = Some x ->
            dirs <> [] -> exists r s', random_grid f dirs s = Some (Some r, s')).
  { intros f dirs Hdirs Hfd Hne.
    destruct (random_grid_spec f dirs s Hs Hne) as (o & s1 & E & _ & _ & Hfind).
    destruct Hfind as (r & ->); [exists d, x; split; [apply (Hdirs d x Hfd)|exact Hfd]|]. eauto. }
  destruct (t_geom t); try discriminate; cbn [N.eqb D_RANDOM Pos.eqb];
    (apply Hsub; [|exact Hx|discriminate]); intros d' x'.
  - apply nb_hexagon_some; assumption.
  - apply nb_square_some; assumption.
  - apply nb_torus_some; assumption.
Qed.

(* ring, bidring: the next region always exists; star: another region exists as soon as there are two.
   The mesh and the graph are not covered. *)
Theorem random_finds_neighbor_others fuel pick t s from :
  topo_wf t -> rng_wf s -> from < t_regions t ->
  match t_geom t with
  | Ring | Bidring => exists r s', get_receiver fuel pick t s from D_RANDOM = Some (Some r, s')
  | Star => 1 < t_regions t -> exists r s', get_receiver fuel pick t s from D_RANDOM = Some (Some r, s')
  | _ => True
  end.
Proof.
  intros Hwf Hs Hfrom. destruct (t_geom t) eqn:G; try exact I;
    unfold get_receiver; rewrite G, (proj2 (N.leb_gt _ _) Hfrom); cbn [N.eqb D_RANDOM Pos.eqb negb].
  - eexists _, _. reflexivity.
  - destruct (draw_defined s Hs) as (b & s1 & E & _ & _). rewrite E.
    destruct (b <? HALF_BITS); eexists _, _; reflexivity.
  - intros H1. destruct (N.eqb_spec from 0).
    + destruct (N.eqb_spec (t_regions t) 1); [lia|].
      destruct (draw_defined s Hs) as (b & s1 & E & _ & _). rewrite E. eauto.
    + eauto.
Qed.

(* non-vacuity: a 3x3 hexagonal grid, source in the middle of the top row *)
Example ex_hexagon :
  let t := mkTopo Hexagon 9 3 3 [] in
  topo_wf t /\ count_directions t 1 = 4 /\
  get_receiver 8 0 t (rng_init 1 7) 1 D_SE = Some (Some 4, rng_init 1 7).
Proof.
  cbn zeta. split; [|split; [reflexivity|generalize (rng_init 1 7); reflexivity]].
  unfold topo_wf. cbn. repeat split; try reflexivity; try discriminate.
Qed.
