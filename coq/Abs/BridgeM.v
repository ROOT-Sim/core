(* The abstract C01/C03 theorem for the micro-step (incremental rollback) machine. *)
From Coq Require Import List Arith Lia Permutation.
From RS.Abs Require Import Peel Abs Bridge AbsM AbsM2.
Import ListNotations.

Section BridgeM.
Variable C : Type.
Variable cltb : C -> C -> bool.
Notation clt := (Abs.clt C cltb).
Hypothesis clt_irrefl : forall a, ~ clt a a.
Hypothesis clt_trans : forall a b c, clt a b -> clt b c -> clt a c.
Hypothesis clt_total : forall a b, clt a b \/ a = b \/ clt b a.
Variable tltb : C -> C -> bool.
Notation tlt := (Abs.tlt C tltb).
Hypothesis clt_not_tlt : forall a b, clt a b -> ~ tlt b a.
Variable St : Type.
Variable n : nat.
Variable s0 : nat -> St.
Variable handle : nat -> St -> C -> St * list (nat * C).
Hypothesis valid : forall l s c o, In o (snd (handle l s c)) -> clt c (snd o) /\ fst o < n.
Variable init : list (msg C).
Hypothesis init_dest : forall m, In m init -> mdest C m < n.
Variable below : C -> bool.
Hypothesis below_tdown : forall a b, ~ tlt b a -> below b = true -> below a = true.

Notation absm := (absm C).
Notation entry := (entry C).
Notation msg := (msg C).
Notation Inv := (AbsM.Inv C n init).
Notation Inv2 := (AbsM2.Inv2 C cltb tltb St n s0 handle).
Notation con := (Abs.con C).
Notation hg := (handle_g C St handle below).
Notation belowm := (Bridge.belowm C below).
Notation belowe := (Bridge.belowe C below).
Notation Pg := (Bridge.Pg C init below).
Notation over := (AbsM.over n).
Notation forget := (AbsM.forget C).

(* the bound is valid in state a: nothing pending, in hand, being undone or cancelled lies below it *)
Record gvt_ok (a : absm) : Prop := {
  g_pool : forall m, In m (pool C a) -> belowm m = false;
  g_cur : forall l m, In m (cur C a l) -> belowm m = false;
  g_undo : forall l e, In e (undoing C a l) -> belowe e = false /\ forall o, In o (eouts C e) -> belowm o = false;
  g_doomed : forall l e, In e (hist C a l) -> AbsM.doomedb C a (em C e) = true -> belowe e = false
}.

Definition Hg (a : absm) (l : nat) : list C := map con (filter belowe (hist C a l)).

Lemma inv2_forget a : Inv2 a -> Abs.Inv2 C cltb tltb St n s0 handle (forget a).
Proof.
  intros J. constructor; try apply J. intros l. simpl.
  destruct (Nat.lt_ge_cases l n) as [|Hge]; [right; auto|left; apply (j_out _ _ _ _ _ _ _ a J l Hge)].
Qed.

Lemma in_over_inv {X Y} (f : list X -> list Y) (H : nat -> list X) y : In y (over f H) -> exists l, l < n /\ In y (f (H l)).
Proof. unfold AbsM.over. rewrite in_flat_map. intros [l [Hl Hy]]. apply in_seq in Hl. exists l. split; [lia|auto]. Qed.

Theorem below_gvt_is_sequential_m a : Inv a -> Inv2 a -> gvt_ok a ->
  forall tr, Peel.seqrun C clt St hg s0 Pg tr -> forall l, l < n -> Peel.proj C l tr = Hg a l.
Proof.
  intros I J G.
  pose proof (AbsM.i_nd_placed C n init a I) as Hnp. apply NoDup_map_inv, nodup_app_r, nodup_app_l in Hnp.
  pose proof (AbsM.i_nd_sent C n init a I) as Hns. apply NoDup_map_inv in Hns. unfold AbsM.sent in Hns.
  rewrite app_assoc in Hns. apply nodup_app_l in Hns.
  apply (Bridge.below_is_sequential C cltb clt_irrefl clt_trans clt_total tltb clt_not_tlt St n s0 handle valid init init_dest
           below below_tdown (forget a) (inv2_forget a J) Hnp Hns); [|apply (g_doomed a G)].
  (* below the bound, what the histories hold is what they sent: nothing else holds or has sent anything there *)
  intros x Bx. split.
  - intros Hx. destruct (AbsM.i_placed C n init a I x) as [Hs|Hd]; [apply in_or_app; right; apply in_or_app; auto| |].
    + apply in_app_or in Hs. destruct Hs as [Hs|Hs]; [apply in_or_app; auto|]. apply in_app_or in Hs. destruct Hs as [Hs|Hs]; [apply in_or_app; auto|].
      exfalso. apply in_over_inv in Hs. destruct Hs as [l [_ Hs]]. apply in_flat_map in Hs. destruct Hs as [e [He Ho]].
      destruct (g_undo a G l e He) as [_ Hn]. rewrite (Hn _ Ho) in Bx. discriminate.
    + exfalso. apply in_over_inv in Hx. destruct Hx as [l [_ Hx]]. apply in_map_iff in Hx. destruct Hx as [e [<- He]].
      apply (AbsM.doomedb_true C) in Hd. pose proof (g_doomed a G l e He Hd) as Hb.
      unfold Bridge.belowe, Abs.con in Hb. unfold Bridge.belowm in Bx. congruence.
  - intros Hs. assert (Hs' : In x (AbsM.sent C n init a)).
    { apply in_app_or in Hs. apply in_or_app. destruct Hs as [Hs|Hs]; [left; auto|right; apply in_or_app; auto]. }
    apply (AbsM.i_sent_placed C n init a I), in_app_or in Hs'. destruct Hs' as [Hp|Hp]; [rewrite (g_pool a G x Hp) in Bx; discriminate|].
    apply in_app_or in Hp. destruct Hp as [Hp|Hp]; [exact Hp|]. exfalso. apply in_app_or in Hp. destruct Hp as [Hp|Hp].
    + apply in_over_inv in Hp. destruct Hp as [l [_ Hp]]. apply in_map_iff in Hp. destruct Hp as [e [<- He]].
      destruct (g_undo a G l e He) as [Hb _]. unfold Bridge.belowe, Abs.con in Hb. unfold Bridge.belowm in Bx. congruence.
    + apply in_over_inv in Hp. destruct Hp as [l [_ Hp]]. rewrite (g_cur a G l x Hp) in Bx. discriminate.
Qed.
End BridgeM.
Check below_gvt_is_sequential_m.
