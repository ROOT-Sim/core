(* Invariants of the abstract Time Warp machine + a valid GVT bound
   ==> the histories below the bound are the sequential execution. *)
From Coq Require Import List Arith Lia Permutation Sorted.
From RS.Abs Require Import Peel Abs.
Import ListNotations.

Section Bridge.
Variable C : Type.
Variable cltb : C -> C -> bool.
Notation clt := (Abs.clt C cltb).
Hypothesis clt_irrefl : forall a, ~ clt a a.
Hypothesis clt_trans : forall a b c, clt a b -> clt b c -> clt a c.
Hypothesis clt_total : forall a b, clt a b \/ a = b \/ clt b a.
Variable tltb : C -> C -> bool.
Notation tlt := (Abs.tlt C tltb).
Hypothesis tlt_clt : forall a b, tlt a b -> clt a b.
Hypothesis clt_not_tlt : forall a b, clt a b -> ~ tlt b a.
Hypothesis tlt_negtrans : forall a b c, ~ tlt b a -> ~ tlt c b -> ~ tlt c a.

Variable St : Type.
Variable n : nat.
Variable s0 : nat -> St.
Variable handle : nat -> St -> C -> St * list (nat * C).
Hypothesis valid : forall l s c o, In o (snd (handle l s c)) -> clt c (snd o) /\ fst o < n.
Variable init : list (msg C).
Hypothesis init_dest : forall m, In m init -> mdest C m < n.

(* the GVT bound, as a predicate on contents that only looks at the timestamp *)
Variable below : C -> bool.
Hypothesis below_tdown : forall a b, ~ tlt b a -> below b = true -> below a = true.

Notation abs := (abs C).
Notation entry := (entry C).
Notation msg := (msg C).
Notation Inv := (Inv C n init).
Notation Inv2 := (Inv2 C cltb tltb St n s0 handle).
Notation con := (con C).
Notation stof := (stof C St s0 handle).

Lemma below_cdown a b : Abs.cle C cltb a b -> below b = true -> below a = true.
Proof. intros [H| ->]; auto. apply below_tdown. apply clt_not_tlt; auto. Qed.

(* handler that forgets outputs at or above the bound *)
Definition handle_g (l : nat) (s : St) (c : C) : St * list (nat * C) :=
  let '(s', o) := handle l s c in (s', filter (fun o => below (snd o)) o).

Lemma valid_g l s c o : In o (snd (handle_g l s c)) -> clt c (snd o) /\ fst o < n.
Proof. unfold handle_g. destruct (handle l s c) as [s' os] eqn:E. simpl. intros H. apply filter_In in H.
  destruct H as [H _]. apply (valid l s c o). rewrite E. exact H. Qed.

Definition belowm (m : msg) : bool := below (mc C m).
Definition belowe (e : entry) : bool := below (con e).
Definition pay (m : msg) : nat * C := (mdest C m, mc C m).

(* validity of the bound in state a: nothing pending and nothing cancelled lies below it *)
Record gvt_ok (a : abs) : Prop := {
  g_pool : forall m, In m (pool C a) -> belowm m = false;
  g_doomed : forall l e, In e (hist C a l) -> doomedb C a (em C e) = true -> belowe e = false
}.

Definition Hg (a : abs) (l : nat) : list C := map con (filter belowe (hist C a l)).
Definition Pg : list (nat * C) := map pay (filter belowm init).

Lemma filter_none {A} (p : A -> bool) (l : list A) : (forall x, In x l -> p x = false) -> filter p l = [].
Proof. induction l as [|x t IH]; simpl; auto. intros H. rewrite (H x) by (left; auto). apply IH. intros y Hy. apply H. right; auto. Qed.

Lemma filter_below_prefix (h : list entry) : tsorted C tltb h ->
  exists p r, h = p ++ r /\ filter belowe h = p /\ (forall x, In x r -> belowe x = false).
Proof.
  induction h as [|e t IH]; intros Hts; [exists [], []; repeat split; auto; intros x []|].
  simpl. destruct (belowe e) eqn:Be.
  - destruct IH as [p [r [E [Ef Hr]]]].
    { intros h1 x h2 Eq y Hy. apply (Hts (e :: h1) x h2); [rewrite Eq; reflexivity|right; exact Hy]. }
    exists (e :: p), r. simpl. rewrite Ef, <- E. auto.
  - (* e is not below: neither is anything after it *)
    assert (Ht : forall x, In x t -> belowe x = false).
    { intros x Hx. destruct (in_split _ _ Hx) as [t1 [t2 Et]]. destruct (belowe x) eqn:Bx; auto.
      unfold belowe in *. rewrite (below_tdown (con e) (con x)) in Be; [discriminate| |exact Bx].
      apply (Hts (e :: t1) x t2); [rewrite Et; reflexivity|left; reflexivity]. }
    exists [], (e :: t). rewrite (filter_none _ _ Ht). repeat split; auto. intros x [<-|Hx]; auto.
Qed.

Lemma filter_map_comm {A B} (f : A -> B) (p : B -> bool) (l : list A) :
  filter p (map f l) = map f (filter (fun x => p (f x)) l).
Proof. induction l as [|x t IH]; simpl; auto. destruct (p (f x)); simpl; rewrite IH; reflexivity. Qed.

Lemma filter_flat_map {A B} (f : A -> list B) (p : B -> bool) (l : list A) :
  filter p (flat_map f l) = flat_map (fun x => filter p (f x)) l.
Proof. induction l as [|x t IH]; simpl; auto. rewrite filter_app, IH. reflexivity. Qed.

Lemma map_flat_map {A B D} (f : A -> list B) (g : B -> D) (l : list A) :
  map g (flat_map f l) = flat_map (fun x => map g (f x)) l.
Proof. induction l as [|x t IH]; simpl; auto. rewrite map_app, IH. reflexivity. Qed.

Lemma proj_pay l (X : list msg) : Peel.proj C l (map pay X) = map (mc C) (filter (fun m => Nat.eqb (mdest C m) l) X).
Proof. unfold Peel.proj. rewrite (filter_map_comm pay (fun e => Nat.eqb (fst e) l) X). rewrite map_map. reflexivity. Qed.

Lemma Hg_as_msgs a l : Hg a l = map (mc C) (filter belowm (map (em C) (hist C a l))).
Proof. unfold Hg. rewrite (filter_map_comm (em C) belowm). rewrite map_map. reflexivity. Qed.

Lemma stof_snoc l h e : stof l (h ++ [e]) = fst (handle l (stof l h) (con e)).
Proof. unfold Abs.stof. rewrite fold_left_app. reflexivity. Qed.

Lemma run_prefix l : forall p2 p1 t, hist_ok C St s0 handle l (p1 ++ p2 ++ t) ->
  Peel.run C St handle_g l (stof l p1) (map con p2)
  = (stof l (p1 ++ p2), map pay (filter belowm (flat_map (eouts C) p2))).
Proof.
  induction p2 as [|e q IH]; intros p1 t Hok; simpl.
  - rewrite app_nil_r. reflexivity.
  - destruct (Hok p1 e (q ++ t)) as [Hout _]; [reflexivity|].
    unfold handle_g at 1. destruct (handle l (stof l p1) (con e)) as [s1 o1] eqn:Eh. simpl in Hout.
    assert (Es1 : s1 = stof l (p1 ++ [e])) by (rewrite stof_snoc, Eh; reflexivity).
    rewrite Es1. rewrite (IH (p1 ++ [e]) t) by (rewrite <- app_assoc; exact Hok).
    rewrite <- app_assoc. simpl. f_equal. rewrite filter_app, map_app. f_equal.
    rewrite <- Hout. fold pay. rewrite (filter_map_comm pay (fun o => below (snd o))). reflexivity.
Qed.

Lemma outs_not_below a l h1 e h2 : Inv2 a -> hist C a l = h1 ++ e :: h2 -> belowe e = false ->
  forall m, In m (eouts C e) -> belowm m = false.
Proof.
  intros J Eh Be m Hm. destruct (j_ok _ _ _ _ _ _ _ a J l h1 e h2 Eh) as [Hout _].
  assert (Hin : In (pay m) (snd (handle l (stof l h1) (con e)))) by (rewrite <- Hout; apply (in_map pay); auto).
  destruct (valid _ _ _ _ Hin) as [Hlt _]. simpl in Hlt.
  destruct (belowm m) eqn:Bm; auto. unfold belowm in Bm. unfold belowe in Be.
  rewrite (below_cdown (con e) (mc C m)) in Be; [discriminate| left; auto | auto].
Qed.

Lemma all_outs_eq a : Inv2 a ->
  (Pg : list (Peel.Ev C)) ++ Peel.all_outs C St handle_g n s0 (Hg a) = map pay (filter belowm (sent C n init a)).
Proof.
  intros J. unfold Pg, sent. rewrite filter_app, map_app. f_equal.
  unfold Peel.all_outs. rewrite filter_flat_map, map_flat_map. apply flat_map_ext. intros l.
  unfold Peel.outs_of, Hg.
  destruct (filter_below_prefix (hist C a l) (j_ts _ _ _ _ _ _ _ a J l)) as [p [r [E [Ef Hr]]]].
  rewrite Ef.
  assert (Hok : hist_ok C St s0 handle l ([] ++ p ++ r)) by (simpl; rewrite <- E; apply (j_ok _ _ _ _ _ _ _ a J)).
  pose proof (run_prefix l p [] r Hok) as Hrun. simpl in Hrun. unfold Abs.stof in Hrun at 1. simpl in Hrun.
  rewrite Hrun. simpl. f_equal. rewrite E, flat_map_app, filter_app.
  assert (En : filter belowm (flat_map (eouts C) r) = []).
  { apply filter_none. intros m Hm. apply in_flat_map in Hm. destruct Hm as [e [He Hm]].
    destruct (in_split _ _ He) as [r1 [r2 Er]].
    assert (E2 : hist C a l = (p ++ r1) ++ e :: r2) by (rewrite E, Er, <- app_assoc; reflexivity).
    exact (outs_not_below a l (p ++ r1) e r2 J E2 (Hr e He) m Hm). }
  rewrite En, app_nil_r. reflexivity.
Qed.

Lemma hist_dest a l e : Inv2 a -> In e (hist C a l) -> mdest C (em C e) = l.
Proof. intros J He. destruct (in_split _ _ He) as [h1 [h2 E]]. destruct (j_ok _ _ _ _ _ _ _ a J l h1 e h2 E) as [_ H]. exact H. Qed.

Lemma nodup_flat_map_in {A B} (f : A -> list B) ls x : NoDup (flat_map f ls) -> In x ls -> NoDup (f x).
Proof.
  induction ls as [|y t IH]; simpl; intros Hnd Hin; [contradiction|destruct Hin as [->|Hin]].
  - apply (nodup_app_l _ _ Hnd).
  - apply IH; [apply (nodup_app_r _ _ Hnd)|exact Hin].
Qed.

(* the histories below the bound are closed if, below the bound, exactly what was sent has been processed;
   this is all of the placement invariant and of the validity of the bound that closedness needs *)
Lemma closed_g a : Inv2 a -> NoDup (hist_msgs C n a) -> NoDup (sent C n init a) ->
  (forall x, belowm x = true -> (In x (hist_msgs C n a) <-> In x (sent C n init a))) ->
  Peel.closed C St handle_g n s0 Pg (Hg a).
Proof.
  intros J Hnh Hns Hb l Hl. rewrite (all_outs_eq a J), proj_pay, Hg_as_msgs. apply Permutation_map, NoDup_Permutation.
  - apply NoDup_filter. apply (nodup_flat_map_in _ _ l Hnh). apply in_seq. lia.
  - apply NoDup_filter, NoDup_filter, Hns.
  - intros x. rewrite !filter_In, in_map_iff. split.
    + intros [[e [<- He]] Bx]. repeat split; auto.
      * apply Hb; [exact Bx|apply (in_hist_msgs C n a l e Hl He)].
      * apply Nat.eqb_eq, (hist_dest a l e J He).
    + intros [[Hs Bx] Hd]. apply Nat.eqb_eq in Hd. split; auto.
      apply (Hb x Bx), in_flat_map in Hs. destruct Hs as [l' [_ Hs]].
      apply in_map_iff in Hs. destruct Hs as [e [<- He]]. exists e. split; auto.
      rewrite (hist_dest a l' e J He) in Hd. subst l'. exact He.
Qed.

Lemma sorted_from_splits {A} (R : C -> C -> Prop) (f : A -> C) (p : list A) :
  (forall h1 e h2, p = h1 ++ e :: h2 -> forall x, In x h1 -> R (f x) (f e)) -> StronglySorted R (map f p).
Proof.
  induction p as [|a q IH]; intros H; simpl; constructor.
  - apply IH. intros h1 e h2 E x Hx. apply (H (a :: h1) e h2); [rewrite E; reflexivity|right; auto].
  - apply Forall_forall. intros c Hc. apply in_map_iff in Hc. destruct Hc as [y [<- Hy]].
    destruct (in_split _ _ Hy) as [q1 [q2 E]]. apply (H (a :: q1) y q2); [rewrite E; reflexivity|left; auto].
Qed.

Lemma sorted_g a : Inv2 a -> (forall l e, In e (hist C a l) -> doomedb C a (em C e) = true -> belowe e = false) ->
  Peel.sortedH C clt n (Hg a).
Proof.
  intros J G l Hl. unfold Hg.
  destruct (filter_below_prefix (hist C a l) (j_ts _ _ _ _ _ _ _ a J l)) as [p [r [E [Ef Hr]]]].
  rewrite Ef. apply sorted_from_splits. intros h1 e h2 Ep x Hx.
  apply (j_cs _ _ _ _ _ _ _ a J l h1 e (h2 ++ r)); auto.
  - rewrite E, Ep, <- app_assoc. reflexivity.
  - intros y Hy. destruct (doomedb C a (em C y)) eqn:Ed; auto. exfalso.
    assert (Hyp : In y p).
    { rewrite Ep. apply in_app_or in Hy. apply in_or_app. destruct Hy as [Hy|[<-|[]]]; [left; auto|right; left; auto]. }
    assert (Hyh : In y (hist C a l)) by (rewrite E; apply in_or_app; auto).
    pose proof (G l y Hyh Ed) as Hb.
    rewrite <- Ef in Hyp. apply filter_In in Hyp. destruct Hyp as [_ Hyp]. congruence.
Qed.

Lemma dests_g : Peel.dests_ok C n Pg.
Proof. intros e He. unfold Pg in He. apply in_map_iff in He. destruct He as [m [<- Hm]].
  apply filter_In in Hm. destruct Hm as [Hm _]. simpl. auto. Qed.

Lemma below_is_sequential a : Inv2 a -> NoDup (hist_msgs C n a) -> NoDup (sent C n init a) ->
  (forall x, belowm x = true -> (In x (hist_msgs C n a) <-> In x (sent C n init a))) ->
  (forall l e, In e (hist C a l) -> doomedb C a (em C e) = true -> belowe e = false) ->
  forall tr, Peel.seqrun C clt St handle_g s0 Pg tr -> forall l, l < n -> Peel.proj C l tr = Hg a l.
Proof.
  intros J Hnh Hns Hb Hd tr Hrun.
  apply (Peel.closed_sorted_family_unique C clt clt_irrefl clt_trans clt_total St handle_g n valid_g s0 Pg tr Hrun);
    auto using closed_g, sorted_g, dests_g.
Qed.

(* the abstract form of C01/C03: in any state satisfying the invariants, for any valid GVT bound,
   every sequential execution (of the model truncated at the bound) dispatches to each LP exactly the
   part of its history that lies below the bound *)
Theorem below_gvt_is_sequential a : Inv a -> Inv2 a -> gvt_ok a ->
  forall tr, Peel.seqrun C clt St handle_g s0 Pg tr ->
  forall l, l < n -> Peel.proj C l tr = Hg a l.
Proof.
  intros I J G. pose proof (i_nd_placed _ _ _ a I) as Hnp. apply NoDup_map_inv in Hnp.
  apply (below_is_sequential a J (nodup_app_r _ _ Hnp) (NoDup_map_inv _ _ (i_nd_sent _ _ _ a I))); [|apply (g_doomed a G)].
  intros x Bx. split.
  - intros Hx. destruct (i_placed _ _ _ a I x) as [Hs|Hd]; [apply in_or_app; auto|exact Hs|]. exfalso.
    apply in_flat_map in Hx. destruct Hx as [l [_ Hx]]. apply in_map_iff in Hx. destruct Hx as [e [<- He]].
    apply (doomedb_true C) in Hd. pose proof (g_doomed a G l e He Hd) as Hb.
    unfold belowe, Abs.con in Hb. unfold belowm in Bx. congruence.
  - intros Hs. apply (i_sent_placed _ _ _ a I), in_app_or in Hs. destruct Hs as [Hp|Hh]; [|exact Hh].
    rewrite (g_pool a G x Hp) in Bx. discriminate.
Qed.

Definition a0 (N : nat) : abs := {| hist := fun _ => []; pool := init; antis := []; nid := N |}.
Inductive reach (N : nat) : abs -> Prop :=
| r0 : reach N (a0 N)
| rs : forall a a', reach N a -> step C cltb tltb St n s0 handle a a' -> reach N a'.

Hypothesis init_nodup : NoDup (map (mid C) init).

Lemma flat_map_nil {A B} (ls : list A) : flat_map (fun _ => @nil B) ls = [].
Proof. induction ls; simpl; auto. Qed.

Lemma inv_a0 N : (forall m, In m init -> mid C m < N) -> Inv (a0 N) /\ Inv2 (a0 N).
Proof.
  intros HN. split.
  - assert (Ep : placed C n (a0 N) = init).
    { unfold placed, hist_msgs. simpl. rewrite (flat_map_nil (seq 0 n)). apply app_nil_r. }
    assert (Es : sent C n init (a0 N) = init).
    { unfold sent. simpl. rewrite (flat_map_nil (seq 0 n)). apply app_nil_r. }
    constructor; rewrite ?Ep, ?Es; simpl; auto.
    + constructor.
    + apply incl_refl.
    + intros i [].
  - constructor; intros l; [left; reflexivity|apply each_nil..].
Qed.

Theorem reach_inv N : (forall m, In m init -> mid C m < N) -> forall a, reach N a -> Inv a /\ Inv2 a.
Proof.
  intros HN a R. induction R as [|a a' R [I J] S].
  - apply inv_a0; auto.
  - split.
    + apply (step_inv C cltb tltb St n s0 handle init a a' I S).
    + apply (step_inv2 C cltb clt_trans clt_total tltb tlt_clt St n s0 handle init tlt_negtrans a a' I J S).
Qed.

Corollary time_warp_below_gvt_is_sequential N a :
  (forall m, In m init -> mid C m < N) -> reach N a -> gvt_ok a ->
  forall tr, Peel.seqrun C clt St handle_g s0 Pg tr ->
  forall l, l < n -> Peel.proj C l tr = Hg a l.
Proof. intros HN R G. destruct (reach_inv N HN a R) as [I J]. apply below_gvt_is_sequential; auto. Qed.
End Bridge.
Check time_warp_below_gvt_is_sequential.
