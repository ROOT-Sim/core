(* Abstract Time Warp machine with incremental rollback (one fetch-add / one insert per step). *)
From Coq Require Import List Arith Lia Permutation.
From RS.Abs Require Import Abs.
Import ListNotations.

Section AbsM.
Variable C : Type.
Variable cltb : C -> C -> bool.
Variable tltb : C -> C -> bool.
Variable St : Type.
Variable n : nat.
Variable s0 : nat -> St.
Variable handle : nat -> St -> C -> St * list (nat * C).
Variable init : list (msg C).

Notation msg := (msg C).
Notation entry := (entry C).
Notation mid := (mid C).
Notation em := (em C).
Notation eouts := (eouts C).

Record absm := {
  hist : nat -> list entry;
  undoing : nat -> list entry;     (* removed from the history; outputs still to be marked, input still to be re-pooled *)
  cur : nat -> list msg;           (* the message in hand ([] or [m]) *)
  kill : nat -> list nat;          (* id of the processed message being annihilated ([] or [id]) *)
  pool : list msg;
  antis : list nat;
  nid : nat
}.

Definition doomedb (a : absm) (m : msg) : bool := existsb (Nat.eqb (mid m)) (antis a).
Definition dbefore (a : absm) (m : msg) (e : entry) : bool :=
  if doomedb a (em e) then tltb (mc C m) (mc C (em e)) else cltb (mc C m) (mc C (em e)).
Definition stof := (Abs.stof C St s0 handle).
Definition upd {A} := @Abs.upd A.
Definition idle (a : absm) (l : nat) : Prop := undoing a l = [] /\ cur a l = [] /\ kill a l = [].

Inductive step : absm -> absm -> Prop :=
| s_take : forall a l m,          (* extract an uncancelled message; the LP-local part of the rollback *)
    l < n -> In m (pool a) -> mdest C m = l -> doomedb a m = false -> idle a l ->
    let h := hist a l in
    step a {| hist := upd (hist a) l (keep_of (dbefore a m) h); undoing := upd (undoing a) l (undo_of (dbefore a m) h);
              cur := upd (cur a) l [m]; kill := kill a;
              pool := remove1 C (mid m) (pool a); antis := antis a; nid := nid a |}
| s_mark : forall a l e o os rest,  (* one fetch_add(ANTI) *)
    l < n -> undoing a l = e :: rest -> eouts e = o :: os ->
    step a {| hist := hist a; undoing := upd (undoing a) l ({| Abs.em := em e; Abs.eouts := os |} :: rest);
              cur := cur a; kill := kill a; pool := pool a; antis := antis a ++ [mid o]; nid := nid a |}
| s_repool : forall a l e rest,     (* one re-insertion of an undone input *)
    l < n -> undoing a l = e :: rest -> eouts e = [] -> ~ In (mid (em e)) (kill a l) ->
    step a {| hist := hist a; undoing := upd (undoing a) l rest; cur := cur a; kill := kill a;
              pool := pool a ++ [em e]; antis := antis a; nid := nid a |}
| s_annihilate : forall a l e rest, (* the cancelled processed message itself is released *)
    l < n -> undoing a l = e :: rest -> eouts e = [] -> kill a l = [mid (em e)] ->
    step a {| hist := hist a; undoing := upd (undoing a) l rest; cur := cur a; kill := upd (kill a) l [];
              pool := pool a; antis := remove_id (mid (em e)) (antis a); nid := nid a |}
| s_append : forall a l m,          (* forward execution of the message in hand *)
    l < n -> cur a l = [m] -> undoing a l = [] ->
    let outs := number C (nid a) l (snd (handle l (stof l (hist a l)) (mc C m))) in
    step a {| hist := upd (hist a) l (hist a l ++ [{| Abs.em := m; Abs.eouts := outs |}]); undoing := undoing a;
              cur := upd (cur a) l []; kill := kill a;
              pool := pool a ++ outs; antis := antis a; nid := nid a + length outs |}
| s_drop : forall a m,
    In m (pool a) -> doomedb a m = true ->
    step a {| hist := hist a; undoing := undoing a; cur := cur a; kill := kill a;
              pool := remove1 C (mid m) (pool a); antis := remove_id (mid m) (antis a); nid := nid a |}
| s_cancel_begin : forall a l h1 e h2,
    l < n -> hist a l = h1 ++ e :: h2 -> doomedb a (em e) = true -> idle a l ->
    step a {| hist := upd (hist a) l h1; undoing := upd (undoing a) l (e :: h2); cur := cur a;
              kill := upd (kill a) l [mid (em e)]; pool := pool a; antis := antis a; nid := nid a |}.

Definition over {X Y} (f : list X -> list Y) (H : nat -> list X) : list Y := flat_map (fun l => f (H l)) (seq 0 n).
Definition placed (a : absm) : list msg :=
  pool a ++ over (map em) (hist a) ++ over (map em) (undoing a) ++ over (fun x => x) (cur a).
Definition sent (a : absm) : list msg :=
  init ++ over (flat_map eouts) (hist a) ++ over (flat_map eouts) (undoing a).

Record Inv (a : absm) : Prop := {
  i_nd_placed : NoDup (map mid (placed a));
  i_nd_sent : NoDup (map mid (sent a));
  i_nd_antis : NoDup (antis a);
  i_sent_placed : incl (sent a) (placed a);
  i_placed : forall m, In m (placed a) -> In m (sent a) \/ In (mid m) (antis a);
  i_antis : forall i, In i (antis a) -> In i (map mid (placed a)) /\ ~ In i (map mid (sent a));
  i_ids : forall m, In m (placed a) -> mid m < nid a
}.

(* the state with the rollback in progress forgotten: cancellation status and scan order are those of this part *)
Definition forget (a : absm) : abs C := {| Abs.hist := hist a; Abs.pool := pool a; Abs.antis := antis a; Abs.nid := nid a |}.

Lemma doomedb_true a m : doomedb a m = true <-> In (mid m) (antis a).
Proof. exact (Abs.doomedb_true C (forget a) m). Qed.

Lemma Inv_T a : Inv a <-> InvT C (placed a) (sent a) (antis a) (nid a).
Proof. split; intros [A1 A2 A3 A4 A5 A6 A7]; constructor; auto. Qed.

Lemma nodup_pool a : Inv a -> NoDup (map mid (pool a)).
Proof. intros I. pose proof (i_nd_placed a I) as H. unfold placed in H. rewrite map_app in H. apply (nodup_app_l _ _ H). Qed.

Lemma in_over {X Y} (f : list X -> list Y) (H : nat -> list X) l y : l < n -> In y (f (H l)) -> In y (over f H).
Proof. intros Hl Hy. unfold over. apply in_flat_map. exists l. split; [apply in_seq; lia|auto]. Qed.

(* what one LP contributes to placed and to sent *)
Definition lpl (a : absm) (l : nat) : list msg := map em (hist a l) ++ map em (undoing a l) ++ cur a l.
Definition lse (a : absm) (l : nat) : list msg := flat_map eouts (hist a l) ++ flat_map eouts (undoing a l).

Lemma flat_map_app_perm {X Y} (F G : X -> list Y) ls :
  Permutation (flat_map (fun k => F k ++ G k) ls) (flat_map F ls ++ flat_map G ls).
Proof. induction ls as [|x t IH]; simpl; [constructor|]. rewrite IH. perm. Qed.

Lemma placed_lpl a : Permutation (placed a) (pool a ++ flat_map (lpl a) (seq 0 n)).
Proof. unfold lpl. rewrite !flat_map_app_perm. reflexivity. Qed.
Lemma sent_lse a : Permutation (sent a) (init ++ flat_map (lse a) (seq 0 n)).
Proof. unfold lse. rewrite flat_map_app_perm. reflexivity. Qed.

Definition same_off (l : nat) (a a' : absm) : Prop :=
  forall k, k <> l -> hist a k = hist a' k /\ undoing a k = undoing a' k /\ cur a k = cur a' k.

Lemma placed_frame a a' l d d' : l < n -> same_off l a a' ->
  Permutation (d ++ pool a ++ lpl a l) (d' ++ pool a' ++ lpl a' l) -> Permutation (d ++ placed a) (d' ++ placed a').
Proof.
  intros Hl Ho Hp. rewrite !placed_lpl, !app_assoc. apply (seq_frame n _ _ l []); auto.
  - intros k Hk. unfold lpl. destruct (Ho k Hk) as [-> [-> ->]]. reflexivity.
  - rewrite <- !app_assoc. exact Hp.
Qed.
Lemma sent_frame a a' l d d' : l < n -> same_off l a a' ->
  Permutation (d ++ lse a l) (d' ++ lse a' l) -> Permutation (d ++ sent a) (d' ++ sent a').
Proof.
  intros Hl Ho Hp. rewrite !sent_lse. apply seq_frame with l; auto.
  intros k Hk. unfold lse. destruct (Ho k Hk) as [-> [-> _]]. reflexivity.
Qed.

Definition InvK (a : absm) : Prop :=
  forall l i, In i (kill a l) -> l < n /\ In i (antis a) /\ exists e, In e (undoing a l) /\ mid (em e) = i.

Lemma in_placed_hist a l e : l < n -> In e (hist a l) -> In (em e) (placed a).
Proof. intros Hl He. apply in_or_app. right. apply in_or_app. left. apply (in_over (map em) (hist a) l _ Hl), in_map, He. Qed.
Lemma in_placed_undoing a l e : l < n -> In e (undoing a l) -> In (em e) (placed a).
Proof.
  intros Hl He. apply in_or_app. right. apply in_or_app. right. apply in_or_app. left.
  apply (in_over (map em) (undoing a) l _ Hl), in_map, He.
Qed.

Lemma placed_drop a m an : Inv a -> In m (pool a) ->
  Permutation (placed a) (m :: placed {| hist := hist a; undoing := undoing a; cur := cur a; kill := kill a;
                                         pool := remove1 C (mid m) (pool a); antis := an; nid := nid a |}).
Proof. intros I Hin. apply (Permutation_app_tail _ (remove1_perm C m (pool a) Hin (nodup_pool a I))). Qed.

Lemma placed_annihilate a l e rest kl an : l < n -> undoing a l = e :: rest ->
  Permutation (placed a) (em e :: placed {| hist := hist a; undoing := upd (undoing a) l rest; cur := cur a; kill := kl;
                                            pool := pool a; antis := an; nid := nid a |}).
Proof.
  intros Hl Eu. apply (placed_frame a _ l [] [em e] Hl).
  - intros k Hk. simpl. unfold upd. rewrite upd_other by exact Hk. auto.
  - unfold lpl. simpl. unfold upd. rewrite upd_same, Eu. simpl. perm.
Qed.

Lemma step_placement a a' : Inv a -> InvK a -> step a a' -> Inv a'.
Proof.
  intros I K S. pose proof (proj1 (Inv_T a) I) as T. apply Inv_T.
  destruct S as [a l m Hl Hin Hdest Hd [Eu [Ec Ek]] h | a l e o os rest Hl Eu Eo | a l e rest Hl Eu Eo Hk
               | a l e rest Hl Eu Eo Hk | a l m Hl Ec Eu outs | a m Hin Hd | a l h1 e h2 Hl Eh Hd [Eu [Ec Ek]]].
  (* every step but drop touches one LP *)
  all: try match goal with |- InvT _ (placed ?A) _ _ _ => assert (Ho : same_off l a A)
             by (intros k Hkl; simpl; unfold upd; rewrite ?upd_other by exact Hkl; auto) end.
  - (* take *)
    assert (Eh : hist a l = keep_of (dbefore a m) h ++ undo_of (dbefore a m) h) by apply keep_undo.
    apply T_equiv with (placed a) (sent a) (antis a);
      [exact T|apply (placed_frame a _ l [] [] Hl Ho)|apply (sent_frame a _ l [] [] Hl Ho)|apply Permutation_refl];
      unfold lpl, lse; simpl; unfold upd; rewrite !upd_same, Eu, ?Ec, Eh.
    + rewrite map_app. simpl.
      eapply perm_trans; [apply Permutation_app_tail, (remove1_perm C m (pool a) Hin (nodup_pool a I))|]. perm.
    + rewrite flat_map_app. simpl. perm.
  - (* mark one output *)
    apply (T_mark C _ _ _ _ [o]), T_equiv with (placed a) (sent a) (antis a);
      [exact T|apply (placed_frame a _ l [] [] Hl Ho)|apply (sent_frame a _ l [] [o] Hl Ho)|apply Permutation_refl];
      unfold lpl, lse; simpl; unfold upd; rewrite upd_same, Eu; simpl.
    + reflexivity.
    + rewrite Eo. perm.
  - (* re-pool one undone input *)
    apply T_equiv with (placed a) (sent a) (antis a);
      [exact T|apply (placed_frame a _ l [] [] Hl Ho)|apply (sent_frame a _ l [] [] Hl Ho)|apply Permutation_refl];
      unfold lpl, lse; simpl; unfold upd; rewrite upd_same, Eu; simpl.
    + perm.
    + rewrite Eo. reflexivity.
  - (* annihilate the cancelled processed message *)
    apply T_remove with (em e), T_equiv with (placed a) (sent a) (antis a);
      [exact T|apply placed_annihilate; auto|apply (sent_frame a _ l [] [] Hl Ho)|apply remove_id_perm].
    + unfold lse. simpl. unfold upd. rewrite upd_same, Eu. simpl. rewrite Eo. reflexivity.
    + destruct (K l (mid (em e))) as [_ [Ha _]]; auto. rewrite Hk. left; auto.
  - (* append *)
    apply T_equiv with (outs ++ placed a) (outs ++ sent a) (antis a);
      [|apply (placed_frame a _ l outs [] Hl Ho)|apply (sent_frame a _ l outs [] Hl Ho)|apply Permutation_refl];
      unfold lpl, lse; simpl; unfold upd; rewrite ?upd_same, ?Ec.
    + apply T_add; [exact T|]. unfold outs. rewrite number_ids, number_length. reflexivity.
    + rewrite map_app. simpl. perm.
    + rewrite flat_map_app. simpl. perm.
  - (* drop a cancelled pending message *)
    apply T_remove with m, T_equiv with (placed a) (sent a) (antis a);
      [exact T|apply placed_drop; auto|apply Permutation_refl|apply remove_id_perm, doomedb_true, Hd].
  - (* begin cancelling a processed message *)
    apply T_equiv with (placed a) (sent a) (antis a);
      [exact T|apply (placed_frame a _ l [] [] Hl Ho)|apply (sent_frame a _ l [] [] Hl Ho)|apply Permutation_refl];
      unfold lpl, lse; simpl; unfold upd; rewrite !upd_same, Eu, Eh.
    + rewrite map_app. simpl. perm.
    + rewrite flat_map_app. simpl. perm.
Qed.

Lemma step_kill a a' : Inv a -> InvK a -> step a a' -> InvK a'.
Proof.
  intros I K S l' i Hi.
  destruct S as [a l m Hl Hin Hdest Hd [Eu [Ec Ek]] h | a l e o os rest Hl Eu Eo | a l e rest Hl Eu Eo Hk
               | a l e rest Hl Eu Eo Hk | a l m Hl Ec Eu outs | a m Hin Hd | a l h1 e h2 Hl Eh Hd [Eu [Ec Ek]]];
    simpl in *; unfold upd in *.
  - destruct (K l' i Hi) as [Hl' [Ha [e [He Hid]]]]. repeat split; auto. exists e. split; auto.
    rewrite upd_other; auto. intros ->. rewrite Ek in Hi. contradiction.
  - destruct (K l' i Hi) as [Hl' [Ha [e0 [He Hid]]]]. repeat split; auto; [apply in_or_app; auto|].
    destruct (Nat.eq_dec l' l) as [->|Hne]; [rewrite upd_same|rewrite upd_other by exact Hne; eauto].
    rewrite Eu in He. destruct He as [<-|He]; [eexists; split; [left; reflexivity|exact Hid]|exists e0; split; [right|]; auto].
  - destruct (K l' i Hi) as [Hl' [Ha [e0 [He Hid]]]]. repeat split; auto.
    destruct (Nat.eq_dec l' l) as [->|Hne]; [rewrite upd_same|rewrite upd_other by exact Hne; eauto].
    rewrite Eu in He. destruct He as [<-|He]; [destruct Hk; rewrite Hid; exact Hi|eauto].
  - destruct (Nat.eq_dec l' l) as [->|Hne]; [rewrite upd_same in Hi; contradiction|rewrite upd_other in Hi by exact Hne].
    rewrite upd_other by exact Hne. destruct (K l' i Hi) as [Hl' [Ha [e0 [He Hid]]]]. repeat split; eauto.
    apply remove_id_in; [exact Ha|]. rewrite <- Hid.
    apply (perm_cons_distinct C (placed a) _ (em e) (em e0) (i_nd_placed a I) (placed_annihilate a l e rest (kill a) [] Hl Eu)).
    apply in_placed_undoing with l'; [exact Hl'|]. simpl. unfold upd. rewrite upd_other by exact Hne. exact He.
  - exact (K l' i Hi).
  - destruct (K l' i Hi) as [Hl' [Ha [e0 [He Hid]]]]. repeat split; eauto.
    apply remove_id_in; [exact Ha|]. rewrite <- Hid.
    apply (perm_cons_distinct C (placed a) _ m (em e0) (i_nd_placed a I) (placed_drop a m [] I Hin)).
    apply in_placed_undoing with l'; [exact Hl'|exact He].
  - destruct (Nat.eq_dec l' l) as [->|Hne]; [rewrite upd_same in Hi; rewrite upd_same|rewrite upd_other in Hi by exact Hne; rewrite upd_other by exact Hne; exact (K l' i Hi)].
    destruct Hi as [<-|[]]. repeat split; auto; [apply doomedb_true, Hd|]. exists e. split; [left|]; auto.
Qed.

Theorem step_inv a a' : Inv a -> InvK a -> step a a' -> Inv a' /\ InvK a'.
Proof. intros I K S. split; [apply (step_placement a a' I K S)|apply (step_kill a a' I K S)]. Qed.
End AbsM.
Check step_inv.
