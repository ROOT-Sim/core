(* Abstract Time Warp machine: per-LP histories, a pool of pending messages and a set of pending
   cancellations; its placement invariant and the history invariants from which "closed below GVT" follows. *)
From Coq Require Import List Arith Lia Permutation.
From RS.Abs Require Peel.
Import ListNotations.

(* [perm]: both sides concatenate the same blocks.  The right side is rotated until it starts with the
   first block of the left side, which is then dropped from both. *)
Ltac consapp := repeat match goal with |- context [?x :: ?l] =>
  lazymatch l with nil => fail | _ => change (x :: l) with ([x] ++ l) end end.
Ltac perm := consapp; rewrite <- ?app_assoc, ?app_nil_r;
  repeat first [apply Permutation_refl | apply Permutation_app_head
               | eapply perm_trans; [|apply Permutation_app_comm]; rewrite <- ?app_assoc].

Section Abs.
(* contents with a strict total order, timestamps as a coarser key *)
Variable C : Type.
Variable cltb : C -> C -> bool.
Definition clt a b := cltb a b = true.
Hypothesis clt_trans : forall a b c, clt a b -> clt b c -> clt a c.
Hypothesis clt_total : forall a b, clt a b \/ a = b \/ clt b a.
Variable tltb : C -> C -> bool.                  (* strictly smaller timestamp *)
Definition tlt a b := tltb a b = true.
Hypothesis tlt_clt : forall a b, tlt a b -> clt a b.
Definition cle a b := clt a b \/ a = b.
Definition tle a b := ~ tlt b a.

Variable St : Type.
Variable n : nat.
Variable s0 : nat -> St.
Variable handle : nat -> St -> C -> St * list (nat * C).

Record msg := { mid : nat; mdest : nat; mc : C }.
Record entry := { em : msg; eouts : list msg }.
Record abs := { hist : nat -> list entry; pool : list msg; antis : list nat; nid : nat }.

Definition doomedb (a : abs) (m : msg) : bool := existsb (Nat.eqb (mid m)) (antis a).

(* the comparison made when message m meets history entry e: the ANTI bit of e sorts it first
   among equal timestamps, so m is "before" a doomed entry only with a strictly smaller timestamp *)
Definition dbefore (a : abs) (m : msg) (e : entry) : bool :=
  if doomedb a (em e) then tltb (mc m) (mc (em e)) else cltb (mc m) (mc (em e)).

(* split h = keep ++ undo where undo is the longest suffix satisfying p (scan from the end) *)
Fixpoint take_while {A} (p : A -> bool) (l : list A) : list A :=
  match l with [] => [] | x :: t => if p x then x :: take_while p t else [] end.
Fixpoint drop_while {A} (p : A -> bool) (l : list A) : list A :=
  match l with [] => [] | x :: t => if p x then drop_while p t else l end.
Definition undo_of {A} (p : A -> bool) (h : list A) := rev (take_while p (rev h)).
Definition keep_of {A} (p : A -> bool) (h : list A) := rev (drop_while p (rev h)).

Definition stof (l : nat) (h : list entry) : St := fold_left (fun s e => fst (handle l s (mc (em e)))) h (s0 l).

Fixpoint number (k : nat) (l : nat) (os : list (nat * C)) : list msg :=
  match os with [] => [] | (d, c) :: t => {| mid := k; mdest := d; mc := c |} :: number (S k) l t end.

Definition upd {A} (f : nat -> A) (k : nat) (v : A) : nat -> A := fun x => if Nat.eqb x k then v else f x.
Fixpoint remove1 (m : nat) (l : list msg) : list msg :=
  match l with [] => [] | x :: t => if Nat.eqb (mid x) m then t else x :: remove1 m t end.
Fixpoint remove_id (i : nat) (l : list nat) : list nat :=
  match l with [] => [] | x :: t => if Nat.eqb x i then t else x :: remove_id i t end.

Definition ids_of (es : list entry) : list nat := map mid (flat_map eouts es).

Inductive step : abs -> abs -> Prop :=
| s_process : forall a l m,
    l < n -> In m (pool a) -> mdest m = l -> doomedb a m = false ->
    let h := hist a l in
    let keep := keep_of (dbefore a m) h in
    let undo := undo_of (dbefore a m) h in
    let outs := number (nid a) l (snd (handle l (stof l keep) (mc m))) in
    step a {| hist := upd (hist a) l (keep ++ [{| em := m; eouts := outs |}]);
              pool := remove1 (mid m) (pool a) ++ map em undo ++ outs;
              antis := antis a ++ ids_of undo;
              nid := nid a + length outs |}
| s_drop : forall a m,                                  (* cancelled before being processed *)
    In m (pool a) -> doomedb a m = true ->
    step a {| hist := hist a; pool := remove1 (mid m) (pool a); antis := remove_id (mid m) (antis a); nid := nid a |}
| s_cancel : forall a l h1 e h2,                       (* cancelled after being processed *)
    l < n -> hist a l = h1 ++ e :: h2 -> doomedb a (em e) = true ->
    step a {| hist := upd (hist a) l h1;
              pool := pool a ++ map em h2;
              antis := remove_id (mid (em e)) (antis a) ++ ids_of (e :: h2);
              nid := nid a |}.

(* everything that exists now / everything sent by an entry that is currently valid *)
Definition hist_msgs (a : abs) : list msg := flat_map (fun l => map em (hist a l)) (seq 0 n).
Definition placed (a : abs) : list msg := pool a ++ hist_msgs a.
Definition sent (init : list msg) (a : abs) : list msg := init ++ flat_map (fun l => flat_map eouts (hist a l)) (seq 0 n).

Lemma nodup_app_l {A} (l r : list A) : NoDup (l ++ r) -> NoDup l.
Proof. induction l as [|x t IH]; simpl; intros H; [constructor|]. inversion H as [|? ? Hx Ht]; subst.
  constructor; auto. intro Hi. apply Hx. apply in_or_app; auto. Qed.
Lemma nodup_app_r {A} (l r : list A) : NoDup (l ++ r) -> NoDup r.
Proof. induction l as [|x t IH]; simpl; intros H; auto. inversion H; auto. Qed.
Lemma nodup_app_disj {A} (l r : list A) x : NoDup (l ++ r) -> In x l -> In x r -> False.
Proof. induction l as [|y t IH]; simpl; intros H Hl Hr; [contradiction|]. inversion H as [|? ? Hy Ht]; subst.
  destruct Hl as [->|Hl]; [apply Hy; apply in_or_app; auto | eauto]. Qed.
Lemma nodup_app_intro {A} (l r : list A) : NoDup l -> NoDup r -> (forall x, In x l -> In x r -> False) -> NoDup (l ++ r).
Proof. induction l as [|y t IH]; simpl; intros Hl Hr Hd; auto. inversion Hl as [|? ? Hy Ht]; subst.
  constructor; [|apply IH; eauto]. intro Hi. apply in_app_or in Hi. destruct Hi as [Hi|Hi]; [auto|]. eapply Hd; eauto. Qed.

Lemma upd_same {A} (f : nat -> A) k v : upd f k v k = v.
Proof. apply Peel.upd_same. Qed.
Lemma upd_other {A} (f : nat -> A) k v x : x <> k -> upd f k v x = f x.
Proof. apply Peel.upd_other. Qed.
Lemma upd_all {A} (Q : nat -> A -> Prop) f l v : Q l v -> (forall k, k <> l -> Q k (f k)) -> forall k, Q k (upd f l v k).
Proof. intros Hv Hf k. destruct (Nat.eq_dec k l) as [->|Hk]; [rewrite upd_same|rewrite upd_other by exact Hk]; auto. Qed.

Lemma keep_undo {A} (p : A -> bool) (h : list A) : h = keep_of p h ++ undo_of p h.
Proof.
  unfold keep_of, undo_of. rewrite <- rev_app_distr.
  assert (E : forall l : list A, take_while p l ++ drop_while p l = l).
  { induction l as [|x t IH]; simpl; auto. destruct (p x); simpl; [f_equal; auto|auto]. }
  rewrite E. symmetry. apply rev_involutive.
Qed.

Lemma undo_all {A} (p : A -> bool) (h : list A) x : In x (undo_of p h) -> p x = true.
Proof using St n s0.
  unfold undo_of. rewrite <- in_rev. generalize (rev h). induction l as [|y t IH]; simpl; [intros []|].
  destruct (p y) eqn:E; simpl; [|intros []]. intros [<-|H]; auto.
Qed.

Lemma keep_last {A} (p : A -> bool) (h : list A) k x : keep_of p h = k ++ [x] -> p x = false.
Proof.
  unfold keep_of. intros E. assert (E' : drop_while p (rev h) = x :: rev k).
  { rewrite <- (rev_involutive (drop_while p (rev h))), E, rev_app_distr. reflexivity. }
  revert E'. generalize (rev h). induction l as [|y t IH]; simpl; [discriminate|].
  destruct (p y) eqn:Ey; auto. intros [= -> _]. exact Ey.
Qed.

Lemma seq_frame {Y} (F F' : nat -> list Y) l (c d d' : list Y) :
  l < n -> (forall k, k <> l -> F' k = F k) -> Permutation (d' ++ F' l) (d ++ F l) ->
  Permutation (d' ++ c ++ flat_map F' (seq 0 n)) (d ++ c ++ flat_map F (seq 0 n)).
Proof.
  intros Hl Hoff Hloc. set (R := flat_map (fun k => if Nat.eqb k l then [] else F k) (seq 0 n)).
  assert (Hs : forall G, (forall k, k <> l -> G k = F k) -> Permutation (flat_map G (seq 0 n)) (G l ++ R)).
  { intros G HG. apply Peel.flat_map_upd_perm with (k := l).
    - apply seq_NoDup.
    - apply in_seq; lia.
    - rewrite Nat.eqb_refl, app_nil_r. reflexivity.
    - intros k Hk. destruct (Nat.eqb_spec k l); [contradiction|auto]. }
  rewrite (Hs F'), (Hs F) by auto.
  eapply perm_trans; [apply Permutation_app_swap_app|]. eapply perm_trans; [|apply Permutation_app_swap_app].
  apply Permutation_app_head. rewrite !app_assoc. apply Permutation_app_tail, Hloc.
Qed.

Lemma remove1_perm (m : msg) (l : list msg) :
  In m l -> NoDup (map mid l) -> Permutation l (m :: remove1 (mid m) l).
Proof.
  induction l as [|x t IH]; simpl; [intros []|]. intros Hin Hnd. inversion Hnd as [|? ? Hx Hnd']; subst.
  destruct (Nat.eqb_spec (mid x) (mid m)) as [E|E].
  - destruct Hin as [->|Hin]; [apply Permutation_refl|]. exfalso. apply Hx. rewrite E. apply in_map; auto.
  - destruct Hin as [->|Hin]; [congruence|]. eapply perm_trans; [apply perm_skip; apply IH; auto|]. apply perm_swap.
Qed.

Lemma remove_id_perm (i : nat) (l : list nat) : In i l -> Permutation l (i :: remove_id i l).
Proof.
  induction l as [|x t IH]; simpl; [intros []|]. intros Hin.
  destruct (Nat.eqb_spec x i) as [->|E]; [apply Permutation_refl|].
  destruct Hin as [->|Hin]; [congruence|]. eapply perm_trans; [apply perm_skip; apply IH; auto|]. apply perm_swap.
Qed.

Lemma remove_id_in i j l : In i l -> i <> j -> In i (remove_id j l).
Proof. induction l as [|x t IH]; simpl; [intros []|]. intros [->|H] Hne.
  - destruct (Nat.eqb_spec i j); [contradiction|left; auto].
  - destruct (Nat.eqb_spec x j); auto. right; auto. Qed.
Lemma remove_id_incl j l : incl (remove_id j l) l.
Proof. induction l as [|x t IH]; simpl; [apply incl_refl|]. destruct (Nat.eqb_spec x j).
  - apply incl_tl, incl_refl.
  - intros y [->|Hy]; [left; auto|right; apply IH; auto]. Qed.

Lemma doomedb_true a m : doomedb a m = true <-> In (mid m) (antis a).
Proof. unfold doomedb. rewrite existsb_exists. split.
  - intros [x [Hx E]]. apply Nat.eqb_eq in E. subst. auto.
  - intros H. exists (mid m). split; auto. apply Nat.eqb_refl. Qed.

Lemma doomedb_false a x : doomedb a x = false <-> ~ In (mid x) (antis a).
Proof. rewrite <- doomedb_true. symmetry. apply Bool.not_true_iff_false. Qed.

Lemma status_kept a a' x : (In (mid x) (antis a) -> In (mid x) (antis a')) -> doomedb a' x = false -> doomedb a x = false.
Proof. rewrite !doomedb_false. auto. Qed.

Lemma number_ids k l os : map mid (number k l os) = seq k (length os).
Proof. revert k; induction os as [|[d c] t IH]; intros k; simpl; auto. rewrite IH. reflexivity. Qed.
Lemma number_length k l os : length (number k l os) = length os.
Proof. revert k; induction os as [|[d c] t IH]; intros k; simpl; auto. Qed.
Lemma number_payload k l os : map (fun m => (mdest m, mc m)) (number k l os) = os.
Proof. revert k; induction os as [|[d c] t IH]; intros k; simpl; auto. rewrite IH. reflexivity. Qed.

Variable init : list msg.

(* the placement invariant: every message that exists (pending or processed) is either valid, i.e. sent at the
   start or by a current history entry, or awaits its cancellation; ids are unique and below the next id *)
Record Inv (a : abs) : Prop := {
  i_nd_placed : NoDup (map mid (placed a));
  i_nd_sent : NoDup (map mid (sent init a));
  i_nd_antis : NoDup (antis a);
  i_sent_placed : incl (sent init a) (placed a);
  i_placed : forall m, In m (placed a) -> In m (sent init a) \/ In (mid m) (antis a);
  i_antis : forall i, In i (antis a) -> In i (map mid (placed a)) /\ ~ In i (map mid (sent init a));
  i_ids : forall m, In m (placed a) -> mid m < nid a
}.

(* the same, as a predicate on (existing, valid, cancelled, next id) *)
Record InvT (pl se : list msg) (an : list nat) (N : nat) : Prop := {
  t_nd_pl : NoDup (map mid pl);
  t_nd_se : NoDup (map mid se);
  t_nd_an : NoDup an;
  t_se_pl : incl se pl;
  t_pl : forall m, In m pl -> In m se \/ In (mid m) an;
  t_an : forall i, In i an -> In i (map mid pl) /\ ~ In i (map mid se);
  t_ids : forall m, In m pl -> mid m < N
}.
Lemma Inv_T a : Inv a <-> InvT (placed a) (sent init a) (antis a) (nid a).
Proof. split; intros [A1 A2 A3 A4 A5 A6 A7]; constructor; auto. Qed.

Lemma T_equiv pl se an N pl' se' an' :
  InvT pl se an N -> Permutation pl pl' -> Permutation se se' -> Permutation an an' -> InvT pl' se' an' N.
Proof.
  intros [A1 A2 A3 A4 A5 A6 A7] Pp Ps Pa. constructor.
  - rewrite <- Pp. exact A1.
  - rewrite <- Ps. exact A2.
  - rewrite <- Pa. exact A3.
  - intros x. rewrite <- Pp, <- Ps. apply A4.
  - intros x. rewrite <- Pp, <- Ps, <- Pa. apply A5.
  - intros i. rewrite <- Pp, <- Ps, <- Pa. apply A6.
  - intros x. rewrite <- Pp. apply A7.
Qed.

Lemma T_mark pl se an N os : InvT pl (os ++ se) an N -> InvT pl se (an ++ map mid os) N.
Proof.
  intros [A1 A2 A3 A4 A5 A6 A7]. rewrite map_app in A2, A6. constructor; auto.
  - apply (nodup_app_r _ _ A2).
  - apply nodup_app_intro; auto; [apply (nodup_app_l _ _ A2)|].
    intros i H1 H2. destruct (A6 i H1) as [_ H]. apply H, in_or_app; auto.
  - intros x Hx. apply A4, in_or_app; auto.
  - intros x Hx. destruct (A5 x Hx) as [H|H]; [apply in_app_or in H; destruct H as [H|H]|]; auto.
    + right. apply in_or_app. right. apply in_map, H.
    + right. apply in_or_app; auto.
  - intros i Hi. apply in_app_or in Hi. destruct Hi as [Hi|Hi].
    + destruct (A6 i Hi) as [H1 H2]. split; auto. intro H. apply H2, in_or_app; auto.
    + split; [|intro H; apply (nodup_app_disj _ _ i A2); auto].
      apply in_map_iff in Hi. destruct Hi as [x [<- Hx]]. apply in_map, A4, in_or_app; auto.
Qed.

Lemma T_remove pl se an N x : InvT (x :: pl) se (mid x :: an) N -> InvT pl se an N.
Proof.
  intros [A1 A2 A3 A4 A5 A6 A7]. simpl in A1.
  inversion A1 as [|? ? Hnx Hnd]. inversion A3 as [|? ? Hnax Hna]. subst.
  destruct (A6 (mid x) (or_introl eq_refl)) as [_ Hxs].
  constructor; auto.
  - intros y Hy. destruct (A4 y Hy) as [<-|H]; auto. destruct Hxs. apply in_map, Hy.
  - intros y Hy. destruct (A5 y (or_intror Hy)) as [H|[E|H]]; auto. destruct Hnx. rewrite E. apply in_map, Hy.
  - intros i Hi. destruct (A6 i (or_intror Hi)) as [[E|H1] H2]; auto. destruct Hnax. rewrite E. exact Hi.
  - intros y Hy. apply A7. right. exact Hy.
Qed.

Lemma T_add pl se an N outs : InvT pl se an N -> map mid outs = seq N (length outs) ->
  InvT (outs ++ pl) (outs ++ se) an (N + length outs).
Proof.
  intros [A1 A2 A3 A4 A5 A6 A7] Hids.
  assert (Hfresh : forall x, In x outs -> N <= mid x < N + length outs).
  { intros x Hx. apply (in_map mid) in Hx. rewrite Hids in Hx. apply in_seq in Hx. lia. }
  assert (Hpl_lt : forall i, In i (map mid pl) -> i < N).
  { intros i Hi. apply in_map_iff in Hi. destruct Hi as [x [<- Hx]]. auto. }
  constructor; auto.
  - rewrite map_app. apply nodup_app_intro; auto; [rewrite Hids; apply seq_NoDup|].
    intros i H1 H2. apply in_map_iff in H1. destruct H1 as [x [<- Hx]]. apply Hfresh in Hx. apply Hpl_lt in H2. lia.
  - rewrite map_app. apply nodup_app_intro; auto; [rewrite Hids; apply seq_NoDup|].
    intros i H1 H2. apply in_map_iff in H1. destruct H1 as [x [<- Hx]]. apply Hfresh in Hx.
    apply in_map_iff in H2. destruct H2 as [y [E Hy]]. pose proof (A7 y (A4 y Hy)). lia.
  - intros x Hx. apply in_app_or in Hx. apply in_or_app. destruct Hx; auto.
  - intros x Hx. apply in_app_or in Hx. destruct Hx as [Hx|Hx]; [left; apply in_or_app; auto|].
    destruct (A5 x Hx); auto. left. apply in_or_app; auto.
  - intros i Hi. destruct (A6 i Hi) as [H1 H2]. split; [rewrite map_app; apply in_or_app; auto|].
    rewrite map_app. intro H. apply in_app_or in H. destruct H as [H|H]; auto.
    apply in_map_iff in H. destruct H as [x [<- Hx]]. apply Hfresh in Hx. apply Hpl_lt in H1. lia.
  - intros x Hx. apply in_app_or in Hx. destruct Hx as [Hx|Hx]; [apply Hfresh in Hx; lia|]. pose proof (A7 x Hx). lia.
Qed.

Lemma perm_cons_distinct (pl pl' : list msg) x y : NoDup (map mid pl) -> Permutation pl (x :: pl') -> In y pl' -> mid y <> mid x.
Proof.
  intros Hnd Hp Hy E. apply (Permutation_NoDup (Permutation_map mid Hp)) in Hnd. simpl in Hnd.
  inversion Hnd as [|? ? Hx _]. apply Hx. rewrite <- E. apply in_map, Hy.
Qed.

Lemma nodup_pool a : Inv a -> NoDup (map mid (pool a)).
Proof. intros I. pose proof (i_nd_placed a I) as H. unfold placed in H. rewrite map_app in H. apply (nodup_app_l _ _ H). Qed.

Lemma in_hist_msgs a l e : l < n -> In e (hist a l) -> In (em e) (hist_msgs a).
Proof. intros Hl He. unfold hist_msgs. apply in_flat_map. exists l. split; [apply in_seq; lia|apply in_map; auto]. Qed.

Lemma placed_frame a a' l d d' : l < n -> (forall k, k <> l -> hist a k = hist a' k) ->
  Permutation (d ++ pool a ++ map em (hist a l)) (d' ++ pool a' ++ map em (hist a' l)) ->
  Permutation (d ++ placed a) (d' ++ placed a').
Proof.
  intros Hl Ho Hp. unfold placed, hist_msgs. rewrite !app_assoc. apply (seq_frame _ _ l []); auto.
  - intros k Hk. rewrite Ho; auto.
  - rewrite <- !app_assoc. exact Hp.
Qed.
Lemma sent_frame a a' l d d' : l < n -> (forall k, k <> l -> hist a k = hist a' k) ->
  Permutation (d ++ flat_map eouts (hist a l)) (d' ++ flat_map eouts (hist a' l)) ->
  Permutation (d ++ sent init a) (d' ++ sent init a').
Proof. intros Hl Ho Hp. apply seq_frame with l; auto. intros k Hk. rewrite Ho; auto. Qed.

Lemma placed_cancel a l h1 e h2 an N : l < n -> hist a l = h1 ++ e :: h2 ->
  Permutation (placed a) (em e :: placed {| hist := upd (hist a) l h1; pool := pool a ++ map em h2; antis := an; nid := N |}).
Proof.
  intros Hl Eh. apply (placed_frame a _ l [] [em e] Hl); simpl.
  - intros k Hk. symmetry. apply upd_other, Hk.
  - rewrite upd_same, Eh, map_app. simpl. perm.
Qed.

Theorem step_inv a a' : Inv a -> step a a' -> Inv a'.
Proof.
  intros I S. pose proof (proj1 (Inv_T a) I) as T. apply Inv_T.
  destruct S as [a l m Hl Hin Hdest Hd h keep undo outs | a m Hin Hd | a l h1 e h2 Hl Eh Hd].
  - (* process: the outputs appear, those of the undone entries become cancelled *)
    assert (Eh : hist a l = keep ++ undo) by apply keep_undo.
    match goal with |- InvT (placed ?A) _ _ _ => set (a' := A) end.
    assert (Ho : forall k, k <> l -> hist a k = hist a' k) by (intros k Hk; symmetry; apply upd_other, Hk).
    apply T_mark, T_equiv with (outs ++ placed a) (outs ++ sent init a) (antis a);
      [|apply (placed_frame a a' l outs [] Hl Ho)|apply (sent_frame a a' l outs _ Hl Ho)|apply Permutation_refl]; simpl.
    + apply T_add; [exact T|]. unfold outs. rewrite number_ids, number_length. reflexivity.
    + rewrite upd_same, Eh, !map_app. simpl.
      eapply perm_trans; [apply Permutation_app_head, Permutation_app_tail, (remove1_perm m (pool a) Hin (nodup_pool a I))|]. perm.
    + rewrite upd_same, Eh, !flat_map_app. simpl. perm.
  - (* drop *)
    apply T_remove with m, T_equiv with (placed a) (sent init a) (antis a); [exact T| |apply Permutation_refl|].
    + apply (Permutation_app_tail _ (remove1_perm m (pool a) Hin (nodup_pool a I))).
    + apply remove_id_perm, doomedb_true, Hd.
  - (* cancel: the message disappears, the outputs of the entries from it on become cancelled *)
    apply T_mark, T_remove with (em e), T_equiv with (placed a) (sent init a) (antis a); [exact T|apply placed_cancel; auto| |].
    + apply (sent_frame a _ l [] _ Hl); simpl.
      * intros k Hk. symmetry. apply upd_other, Hk.
      * rewrite upd_same, Eh, flat_map_app. apply Permutation_app_comm.
    + apply remove_id_perm, doomedb_true, Hd.
Qed.

Hypothesis tlt_negtrans : forall a b c, ~ tlt b a -> ~ tlt c b -> ~ tlt c a.   (* a <=t b, b <=t c  =>  a <=t c *)

Definition con (e : entry) : C := mc (em e).

Definition entry_ok (l : nat) (h1 : list entry) (e : entry) : Prop :=
  map (fun m => (mdest m, mc m)) (eouts e) = snd (handle l (stof l h1) (con e)) /\ mdest (em e) = l.
Definition hist_ok (l : nat) (h : list entry) : Prop := forall h1 e h2, h = h1 ++ e :: h2 -> entry_ok l h1 e.
Definition tsorted (h : list entry) : Prop :=
  forall h1 e h2, h = h1 ++ e :: h2 -> forall x, In x h1 -> ~ tlt (con e) (con x).
Definition csorted (a : abs) (h : list entry) : Prop :=
  forall h1 e h2, h = h1 ++ e :: h2 -> (forall x, In x (h1 ++ [e]) -> doomedb a (em x) = false) ->
  forall x, In x h1 -> cle (con x) (con e).

Record Inv2 (a : abs) : Prop := {
  j_out : forall l, hist a l = [] \/ l < n;
  j_ok : forall l, hist_ok l (hist a l);
  j_ts : forall l, tsorted (hist a l);
  j_cs : forall l, csorted a (hist a l)
}.

(* hist_ok, tsorted and csorted all say that every entry is right for what precedes it *)
Definition each_split {A} (P : list A -> A -> Prop) (h : list A) : Prop := forall h1 e h2, h = h1 ++ e :: h2 -> P h1 e.

Lemma each_nil {A} (P : list A -> A -> Prop) : each_split P [].
Proof. intros h1 e h2 E. destruct h1; discriminate. Qed.
Lemma each_prefix {A} (P : list A -> A -> Prop) h t : each_split P (h ++ t) -> each_split P h.
Proof. intros H h1 e h2 E. apply (H h1 e (h2 ++ t)). rewrite E, <- app_assoc. reflexivity. Qed.
Lemma each_snoc {A} (P : list A -> A -> Prop) h x : each_split P h -> P h x -> each_split P (h ++ [x]).
Proof.
  intros Hh Hx h1 e h2 E. induction h2 as [|y h2' _] using rev_ind.
  - apply app_inj_tail in E. destruct E as [-> ->]. exact Hx.
  - rewrite app_comm_cons, app_assoc in E. apply app_inj_tail in E. destruct E as [E _]. exact (Hh h1 e h2' E).
Qed.

Lemma cle_refl a : cle a a. Proof. right; reflexivity. Qed.
Lemma cle_trans a b c : cle a b -> cle b c -> cle a c.
Proof. intros [H| ->] [H'| ->]; unfold cle; eauto. Qed.
Lemma not_clt_cle a b : ~ clt a b -> cle b a.
Proof. intros H. destruct (clt_total a b) as [H'|[->|H']]; [contradiction|apply cle_refl|left; auto]. Qed.

Lemma snoc_cases {A} (l : list A) : l = [] \/ exists k y, l = k ++ [y].
Proof. induction l as [|x t IH] using rev_ind; [left; auto|right; eauto]. Qed.

Lemma csorted_mono a a' h :
  (forall x, In x h -> In (mid (em x)) (antis a) -> In (mid (em x)) (antis a')) -> csorted a h -> csorted a' h.
Proof.
  intros Hm Hcs h1 e h2 E Hlive x Hx. apply (Hcs h1 e h2 E); auto.
  intros y Hy. assert (Hyh : In y h).
  { rewrite E. apply in_app_or in Hy. apply in_or_app. destruct Hy as [Hy|[<-|[]]]; [left; auto|right; left; auto]. }
  apply (status_kept a a'); auto.
Qed.

(* the last kept entry bounds the new message from below, in timestamp and (if nothing kept is cancelled) in content *)
Lemma keep_bounds a m h : tsorted h -> csorted a h ->
  (forall x, In x (keep_of (dbefore a m) h) -> ~ tlt (mc m) (con x)) /\
  ((forall x, In x (keep_of (dbefore a m) h) -> doomedb a (em x) = false) ->
   forall x, In x (keep_of (dbefore a m) h) -> cle (con x) (mc m)).
Proof.
  intros Hts Hcs. set (p := dbefore a m). pose proof (keep_undo p h) as Eh.
  destruct (snoc_cases (keep_of p h)) as [Ek|[k [y Ek]]].
  - rewrite Ek. split; [intros x []|intros _ x []].
  - rewrite Ek in *. pose proof (keep_last p h k y Ek) as Hy. rewrite <- app_assoc in Eh. simpl in Eh.
    assert (Hmy : ~ tlt (mc m) (con y)).
    { unfold p, dbefore in Hy. destruct (doomedb a (em y)).
      - unfold tlt, con. rewrite Hy. discriminate.
      - intro H. apply tlt_clt in H. unfold clt, con in H. congruence. }
    split.
    + intros x Hx. apply in_app_or in Hx. destruct Hx as [Hx|[<-|[]]]; auto.
      apply (tlt_negtrans (con x) (con y) (mc m)); auto. apply (Hts k y (undo_of p h)); auto.
    + intros Hlive x Hx.
      assert (Hym : cle (con y) (mc m)).
      { unfold p, dbefore in Hy. rewrite (Hlive y) in Hy by (apply in_or_app; right; left; auto).
        apply not_clt_cle. unfold clt, con. congruence. }
      apply in_app_or in Hx. destruct Hx as [Hx|[<-|[]]]; auto.
      eapply cle_trans; [|exact Hym]. apply (Hcs k y (undo_of p h)); auto.
Qed.

Lemma hist_lt a l x : Inv2 a -> In x (hist a l) -> l < n.
Proof. intros J Hx. destruct (j_out a J l) as [E|Hl]; [rewrite E in Hx; contradiction|exact Hl]. Qed.

Lemma inv2_cut a a' : Inv2 a -> (forall l, exists t, hist a l = hist a' l ++ t) ->
  (forall l x, In x (hist a' l) -> In (mid (em x)) (antis a) -> In (mid (em x)) (antis a')) -> Inv2 a'.
Proof.
  intros J Hcut Hst. constructor; intros l; destruct (Hcut l) as [t E].
  - destruct (j_out a J l) as [E0|Hl]; [left|right; exact Hl]. rewrite E0 in E. symmetry in E. apply app_eq_nil in E. apply E.
  - apply each_prefix with t. rewrite <- E. apply (j_ok a J).
  - apply each_prefix with t. rewrite <- E. apply (j_ts a J).
  - apply csorted_mono with a; [apply Hst|].
    apply each_prefix with t. rewrite <- E. apply (j_cs a J).
Qed.

Theorem step_inv2 a a' : Inv a -> Inv2 a -> step a a' -> Inv2 a'.
Proof.
  intros I J S. destruct S as [a l m Hl Hin Hdest Hd h keep undo outs | a m Hin Hd | a l h1 e h2 Hl Eh Hd].
  - (* process *)
    assert (Eh : hist a l = keep ++ undo) by apply keep_undo.
    destruct (keep_bounds a m (hist a l) (j_ts a J l) (j_cs a J l)) as [Kt Kc].
    match goal with |- Inv2 ?A => set (a' := A) end.
    assert (Hi : forall x, In (mid x) (antis a) -> In (mid x) (antis a')) by (intros x H; apply in_or_app; auto).
    constructor; simpl.
    + apply (upd_all (fun k h => h = [] \/ k < n)); [right; exact Hl|intros k _; apply (j_out a J)].
    + apply (upd_all hist_ok); [|intros k _; apply (j_ok a J)].
      apply each_snoc; [apply each_prefix with undo; rewrite <- Eh; apply (j_ok a J)|].
      split; [apply number_payload|exact Hdest].
    + apply (upd_all (fun _ => tsorted)); [|intros k _; apply (j_ts a J)].
      apply each_snoc; [apply each_prefix with undo; rewrite <- Eh; apply (j_ts a J)|exact Kt].
    + apply (upd_all (fun _ => csorted a')); [|intros k _; apply csorted_mono with a; [auto|apply (j_cs a J)]].
      apply each_snoc.
      * apply csorted_mono with a; [auto|]. apply each_prefix with undo. rewrite <- Eh. apply (j_cs a J).
      * intros Hlive x Hx. apply Kc; auto. intros y Hy. apply (status_kept a a'); [apply Hi|]. apply Hlive, in_or_app; auto.
  - (* drop: the message dropped is pending, so it is no history entry's *)
    apply inv2_cut with a; [exact J|intros l; exists []; symmetry; apply app_nil_r|]. simpl.
    intros l x Hx Hi. apply remove_id_in; [exact Hi|].
    apply (perm_cons_distinct (placed a) _ m (em x) (i_nd_placed a I)
             (Permutation_app_tail _ (remove1_perm m (pool a) Hin (nodup_pool a I)))).
    apply in_or_app. right. apply (in_hist_msgs a l x); [apply (hist_lt a l x J Hx)|exact Hx].
  - (* cancel *)
    apply inv2_cut with a; [exact J| |]; simpl.
    + apply (upd_all (fun k h => exists t, hist a k = h ++ t)); [exists (e :: h2); exact Eh|intros k _; exists []; symmetry; apply app_nil_r].
    + intros k x Hx Hi. apply in_or_app. left. apply remove_id_in; [exact Hi|].
      apply (perm_cons_distinct (placed a) _ (em e) (em x) (i_nd_placed a I) (placed_cancel a l h1 e h2 [] 0 Hl Eh)).
      apply in_or_app. right. apply (in_hist_msgs _ k x); [|exact Hx].
      revert k Hx. apply (upd_all (fun k h => In x h -> k < n)); [auto|]. intros k _. apply (hist_lt a k x J).
Qed.
End Abs.
Check step_inv.
Check step_inv2.
