(* History invariants of the micro-step machine. *)
From Coq Require Import List Arith Lia.
From RS.Abs Require Import Abs AbsM.
Import ListNotations.

Section AbsM2.
Variable C : Type.
Variable cltb : C -> C -> bool.
Notation clt := (Abs.clt C cltb).
Hypothesis clt_trans : forall a b c, clt a b -> clt b c -> clt a c.
Hypothesis clt_total : forall a b, clt a b \/ a = b \/ clt b a.
Variable tltb : C -> C -> bool.
Notation tlt := (Abs.tlt C tltb).
Hypothesis tlt_clt : forall a b, tlt a b -> clt a b.
Hypothesis tlt_negtrans : forall a b c, ~ tlt b a -> ~ tlt c b -> ~ tlt c a.
Notation cle := (Abs.cle C cltb).
Variable St : Type.
Variable n : nat.
Variable s0 : nat -> St.
Variable handle : nat -> St -> C -> St * list (nat * C).
Variable init : list (msg C).

Notation absm := (absm C).
Notation entry := (entry C).
Notation msg := (msg C).
Notation step := (AbsM.step C cltb tltb St n s0 handle).
Notation Inv := (AbsM.Inv C n init).
Notation con := (Abs.con C).
Notation hist_ok := (Abs.hist_ok C St s0 handle).
Notation tsorted := (Abs.tsorted C tltb).
Notation doomedb := (AbsM.doomedb C).
Notation dbefore := (AbsM.dbefore C cltb tltb).

Definition csorted (a : absm) (h : list entry) : Prop :=
  forall h1 e h2, h = h1 ++ e :: h2 -> (forall x, In x (h1 ++ [e]) -> doomedb a (em C x) = false) ->
  forall x, In x h1 -> cle (con x) (con e).

(* what is known about the message in hand: it is routed here and not before anything kept *)
Definition cur_ok (a : absm) (l : nat) : Prop :=
  forall m, In m (cur C a l) ->
    mdest C m = l /\ (forall x, In x (hist C a l) -> ~ tlt (mc C m) (con x)) /\
    ((forall x, In x (hist C a l) -> doomedb a (em C x) = false) -> forall x, In x (hist C a l) -> cle (con x) (mc C m)).

Record Inv2 (a : absm) : Prop := {
  j_out : forall l, n <= l -> hist C a l = [] /\ undoing C a l = [] /\ cur C a l = [];
  j_ok : forall l, hist_ok l (hist C a l);
  j_ts : forall l, tsorted (hist C a l);
  j_cs : forall l, csorted a (hist C a l);
  j_cur : forall l, cur_ok a l
}.

Notation forget := (AbsM.forget C).

Lemma csorted_mono a a' h :
  (forall x, In x h -> In (mid C (em C x)) (antis C a) -> In (mid C (em C x)) (antis C a')) -> csorted a h -> csorted a' h.
Proof. exact (Abs.csorted_mono C cltb (forget a) (forget a') h). Qed.

Lemma hist_lt a l x : Inv2 a -> In x (hist C a l) -> l < n.
Proof. intros J Hx. destruct (Nat.lt_ge_cases l n) as [|Hge]; auto. destruct (j_out a J l Hge) as [E _]. rewrite E in Hx. contradiction. Qed.

Lemma inv2_same a a' : Inv2 a -> hist C a' = hist C a -> cur C a' = cur C a -> (forall l, n <= l -> undoing C a' l = []) ->
  (forall l x, In x (hist C a l) -> In (mid C (em C x)) (antis C a) -> In (mid C (em C x)) (antis C a')) -> Inv2 a'.
Proof.
  intros J Eh Ec Hu Hst. constructor; intros l; unfold cur_ok; rewrite ?Eh, ?Ec.
  - intros Hl. destruct (j_out a J l Hl) as [A [_ B]]. auto.
  - apply (j_ok a J).
  - apply (j_ts a J).
  - apply csorted_mono with a; [apply Hst|apply (j_cs a J)].
  - intros m Hm. destruct (j_cur a J l m Hm) as [H1 [H2 H3]]. repeat split; auto.
    intros Hlive. apply H3. intros x Hx. apply (status_kept C (forget a) (forget a')); [apply (Hst l x Hx)|apply Hlive, Hx].
Qed.

Theorem step_inv2 a a' : Inv a -> Inv2 a -> step a a' -> Inv2 a'.
Proof.
  intros I J S.
  destruct S as [a l m Hl Hin Hdest Hd [Eu [Ec Ek]] h | a l e o os rest Hl Eu Eo | a l e rest Hl Eu Eo Hk
               | a l e rest Hl Eu Eo Hk | a l m Hl Ec Eu outs | a m Hin Hd | a l h1 e h2 Hl Eh Hd [Eu [Ec Ek]]].
  - (* take: what the backward scan keeps bounds the message from below *)
    assert (Eh : hist C a l = keep_of (dbefore a m) h ++ undo_of (dbefore a m) h) by apply keep_undo.
    destruct (keep_bounds C cltb clt_trans clt_total tltb tlt_clt tlt_negtrans (forget a) m (hist C a l) (j_ts a J l) (j_cs a J l)) as [Kt Kc].
    constructor; simpl; unfold AbsM.upd.
    + intros k Hk. rewrite !upd_other by lia. apply (j_out a J k Hk).
    + apply (upd_all hist_ok); [|intros k _; apply (j_ok a J)]. apply each_prefix with (undo_of (dbefore a m) h). rewrite <- Eh. apply (j_ok a J).
    + apply (upd_all (fun _ => tsorted)); [|intros k _; apply (j_ts a J)]. apply each_prefix with (undo_of (dbefore a m) h). rewrite <- Eh. apply (j_ts a J).
    + apply (upd_all (fun _ => csorted a)); [|intros k _; apply (j_cs a J)]. apply each_prefix with (undo_of (dbefore a m) h). rewrite <- Eh. apply (j_cs a J).
    + intros k x Hx. simpl in *. unfold AbsM.upd in *. destruct (Nat.eq_dec k l) as [->|Hk].
      * rewrite upd_same in Hx. rewrite upd_same. destruct Hx as [<-|[]]. repeat split; auto.
      * rewrite upd_other in Hx by exact Hk. rewrite upd_other by exact Hk. apply (j_cur a J k x Hx).
  - (* mark *)
    apply inv2_same with a; [exact J|reflexivity|reflexivity| |]; simpl.
    + apply (upd_all (fun k u => n <= k -> u = [])); [lia|intros k _ Hge; apply (j_out a J k Hge)].
    + intros k x _ Hi. apply in_or_app; auto.
  - (* re-pool *)
    apply inv2_same with a; [exact J|reflexivity|reflexivity| |auto]; simpl.
    apply (upd_all (fun k u => n <= k -> u = [])); [lia|intros k _ Hge; apply (j_out a J k Hge)].
  - (* annihilate: the id that stops being cancelled is that of an entry being undone, not of a history entry *)
    apply inv2_same with a; [exact J|reflexivity|reflexivity| |]; simpl.
    + apply (upd_all (fun k u => n <= k -> u = [])); [lia|intros k _ Hge; apply (j_out a J k Hge)].
    + intros k x Hx Hi. apply remove_id_in; [exact Hi|].
      apply (perm_cons_distinct C (placed C n a) _ (em C e) (em C x) (AbsM.i_nd_placed C n init a I) (placed_annihilate C n a l e rest (kill C a) [] Hl Eu)).
      apply in_placed_hist with k; [exact (hist_lt a k x J Hx)|exact Hx].
  - (* append: the bounds recorded when the message was taken make the longer history well-formed and sorted *)
    destruct (j_cur a J l m) as [Hdest [Ht Hc]]; [rewrite Ec; left; auto|].
    constructor; simpl; unfold AbsM.upd.
    + intros k Hk. rewrite !upd_other by lia. apply (j_out a J k Hk).
    + apply (upd_all hist_ok); [|intros k _; apply (j_ok a J)].
      apply each_snoc; [apply (j_ok a J)|]. split; [apply number_payload|exact Hdest].
    + apply (upd_all (fun _ => tsorted)); [|intros k _; apply (j_ts a J)]. apply each_snoc; [apply (j_ts a J)|exact Ht].
    + apply (upd_all (fun _ => csorted a)); [|intros k _; apply (j_cs a J)]. apply each_snoc; [apply (j_cs a J)|].
      intros Hlive. apply Hc. intros y Hy. apply Hlive, in_or_app; auto.
    + intros k x Hx. simpl in *. unfold AbsM.upd in *. destruct (Nat.eq_dec k l) as [->|Hk]; [rewrite upd_same in Hx; contradiction|].
      rewrite upd_other in Hx by exact Hk. rewrite upd_other by exact Hk. apply (j_cur a J k x Hx).
  - (* drop *)
    apply inv2_same with a; [exact J|reflexivity|reflexivity| |]; simpl.
    + intros k Hk. apply (j_out a J k Hk).
    + intros k x Hx Hi. apply remove_id_in; [exact Hi|].
      apply (perm_cons_distinct C (placed C n a) _ m (em C x) (AbsM.i_nd_placed C n init a I) (placed_drop C n init a m [] I Hin)).
      apply in_placed_hist with k; [exact (hist_lt a k x J Hx)|exact Hx].
  - (* begin cancel *)
    constructor; simpl; unfold AbsM.upd.
    + intros k Hk. rewrite !upd_other by lia. apply (j_out a J k Hk).
    + apply (upd_all hist_ok); [|intros k _; apply (j_ok a J)]. apply each_prefix with (e :: h2). rewrite <- Eh. apply (j_ok a J).
    + apply (upd_all (fun _ => tsorted)); [|intros k _; apply (j_ts a J)]. apply each_prefix with (e :: h2). rewrite <- Eh. apply (j_ts a J).
    + apply (upd_all (fun _ => csorted a)); [|intros k _; apply (j_cs a J)]. apply each_prefix with (e :: h2). rewrite <- Eh. apply (j_cs a J).
    + intros k x Hx. simpl in *. destruct (Nat.eq_dec k l) as [->|Hk]; [rewrite Ec in Hx; contradiction|].
      rewrite upd_other by exact Hk. apply (j_cur a J k x Hx).
Qed.
End AbsM2.
Check step_inv2.
