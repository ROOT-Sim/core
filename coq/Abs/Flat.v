(* The flat tagged history p_msgs (sent markers followed by the processed event) and the backward scan of
   match_straggler_msg, related to the grouped view used by the abstract machine. *)
From Coq Require Import List.
From RS.Abs Require Import Abs.
Import ListNotations.

Section Flat.
Variable M : Type.                                   (* message buffers *)
Record entry := { em : M; eouts : list M }.
Inductive pm := Sent (m : M) | Past (m : M).

Definition flatten1 (e : entry) : list pm := map Sent (eouts e) ++ [Past (em e)].
Definition flatten (h : list entry) : list pm := flat_map flatten1 h.

Variable p : M -> bool.                              (* "the straggler is before this message" *)

(* the loop of match_straggler_msg, on the reversed array: skip sent markers and events the straggler is before *)
Fixpoint scanr (r : list pm) : list pm :=
  match r with
  | [] => []
  | Sent _ :: t => scanr t
  | Past m :: t => if p m then scanr t else r
  end.
Definition keep_flat (l : list pm) : list pm := rev (scanr (rev l)).
Definition keep_count (l : list pm) : nat := length (keep_flat l).     (* the value returned: i + 1, or 0 *)

Lemma flatten_app h1 h2 : flatten (h1 ++ h2) = flatten h1 ++ flatten h2.
Proof. unfold flatten. apply flat_map_app. Qed.

Lemma scanr_sents ms t : scanr (rev (map Sent ms) ++ t) = scanr t.
Proof. induction ms as [|m ms IH] using rev_ind; simpl; auto. rewrite map_app, rev_app_distr. simpl. exact IH. Qed.

Theorem keep_flat_spec h : keep_flat (flatten h) = flatten (keep_of (fun e => p (em e)) h).
Proof.
  induction h as [|e h IH] using rev_ind; [reflexivity|].
  unfold keep_flat in *. rewrite flatten_app. simpl. rewrite app_nil_r. unfold flatten1 at 1.
  rewrite !rev_app_distr. simpl.
  unfold keep_of. rewrite rev_app_distr. simpl.
  destruct (p (em e)) eqn:E.
  - rewrite scanr_sents. exact IH.
  - cbn [rev]. rewrite rev_app_distr, !rev_involutive.
    rewrite flatten_app. cbn [flatten flat_map]. rewrite app_nil_r. unfold flatten1. rewrite <- app_assoc. reflexivity.
Qed.

(* the array is kept as a prefix: the scan only decides where to cut *)
Theorem keep_flat_prefix h : exists suffix, flatten h = keep_flat (flatten h) ++ suffix /\
  suffix = flatten (undo_of (fun e => p (em e)) h).
Proof.
  exists (flatten (undo_of (fun e => p (em e)) h)). split; auto.
  rewrite keep_flat_spec, <- flatten_app, <- keep_undo. reflexivity.
Qed.
End Flat.
