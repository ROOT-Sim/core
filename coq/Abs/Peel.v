(* A family of sorted, mutually closed per-LP histories is the sequential execution: a content-minimal
   pending event is the head of its LP's history, and removing it leaves a family of the same kind. *)
From Coq Require Import List Arith Lia Permutation Sorted.
Import ListNotations.

Section Peel.
Variable C : Type.
Variable clt : C -> C -> Prop.
Hypothesis clt_irrefl : forall a, ~ clt a a.
Hypothesis clt_trans : forall a b c, clt a b -> clt b c -> clt a c.
Hypothesis clt_total : forall a b, clt a b \/ a = b \/ clt b a.
Definition cle a b := clt a b \/ a = b.

Variable St : Type.
Definition Ev := (nat * C)%type.
Variable handle : nat -> St -> C -> St * list Ev.
Variable n : nat.
Hypothesis valid : forall l s c o, In o (snd (handle l s c)) -> clt c (snd o) /\ fst o < n.

Fixpoint run (l : nat) (s : St) (h : list C) : St * list Ev :=
  match h with
  | [] => (s, [])
  | c :: t => let '(s1, o) := handle l s c in let '(s2, os) := run l s1 t in (s2, o ++ os)
  end.

Definition upd {A} (f : nat -> A) (k : nat) (v : A) : nat -> A := fun x => if Nat.eqb x k then v else f x.

Definition outs_of (sg : nat -> St) (H : nat -> list C) (l : nat) : list Ev := snd (run l (sg l) (H l)).
Definition all_outs sg H : list Ev := flat_map (outs_of sg H) (seq 0 n).
Definition proj (l : nat) (es : list Ev) : list C := map snd (filter (fun e => Nat.eqb (fst e) l) es).

Definition closed sg (P : list Ev) (H : nat -> list C) : Prop :=
  forall l, l < n -> Permutation (H l) (proj l (P ++ all_outs sg H)).
Definition sortedH (H : nat -> list C) : Prop := forall l, l < n -> StronglySorted cle (H l).
Definition dests_ok (P : list Ev) : Prop := forall e, In e P -> fst e < n.

(* the sequential executor, relationally: always process a content-minimal pending event *)
Definition minimal (e : Ev) (P : list Ev) : Prop := In e P /\ forall p, In p P -> ~ clt (snd p) (snd e).
Inductive seqrun : (nat -> St) -> list Ev -> list Ev -> Prop :=
| seq_nil : forall sg, seqrun sg [] []
| seq_cons : forall sg P e P1 s' o tr,
    minimal e P -> Permutation P (e :: P1) ->
    handle (fst e) (sg (fst e)) (snd e) = (s', o) ->
    seqrun (upd sg (fst e) s') (o ++ P1) tr ->
    seqrun sg P (e :: tr).

Lemma upd_same {A} (f : nat -> A) k v : upd f k v k = v.
Proof. unfold upd. rewrite Nat.eqb_refl. reflexivity. Qed.
Lemma upd_other {A} (f : nat -> A) k v x : x <> k -> upd f k v x = f x.
Proof. intros Hx. unfold upd. destruct (Nat.eqb_spec x k); [contradiction|reflexivity]. Qed.

Lemma cle_refl a : cle a a. Proof. right; reflexivity. Qed.
Lemma cle_trans a b c : cle a b -> cle b c -> cle a c.
Proof. intros [H| ->] [H'| ->]; unfold cle; eauto. Qed.
Lemma cle_antisym a b : cle a b -> cle b a -> a = b.
Proof. intros [H| ->] [H'|H']; auto. exfalso; eapply clt_irrefl; eauto. Qed.
Lemma clt_cle_false a b : clt a b -> cle b a -> False.
Proof. intros H [H'| ->]; [eapply clt_irrefl; eauto | eapply clt_irrefl; eauto]. Qed.

Lemma proj_perm l a b : Permutation a b -> Permutation (proj l a) (proj l b).
Proof. intros H. unfold proj. apply Permutation_map.
  induction H; simpl; auto.
  - destruct (Nat.eqb (fst x) l); auto.
  - destruct (Nat.eqb (fst x) l), (Nat.eqb (fst y) l); auto. apply perm_swap.
  - eapply perm_trans; eauto.
Qed.

Lemma in_proj l c es : In c (proj l es) <-> In (l, c) es.
Proof. unfold proj. rewrite in_map_iff. split.
  - intros [[l' c'] [<- Hin]]. apply filter_In in Hin. destruct Hin as [Hin Heq]. simpl in *.
    apply Nat.eqb_eq in Heq. subst. exact Hin.
  - intros Hin. exists (l, c). split; auto. apply filter_In. split; auto. simpl. apply Nat.eqb_refl.
Qed.

Lemma proj_cons l e es : proj l (e :: es) = if Nat.eqb (fst e) l then snd e :: proj l es else proj l es.
Proof. unfold proj. simpl. destruct (Nat.eqb (fst e) l); reflexivity. Qed.

Lemma run_out_cause l : forall h s o, In o (snd (run l s h)) -> exists c, In c h /\ clt c (snd o) /\ fst o < n.
Proof.
  induction h as [|c t IH]; simpl; intros s o Hin; [contradiction|].
  destruct (handle l s c) as [s1 o1] eqn:Hh. destruct (run l s1 t) as [s2 os] eqn:Hr. simpl in Hin.
  apply in_app_or in Hin. destruct Hin as [Hin|Hin].
  - exists c. split; [left; reflexivity|]. apply (valid l s c o). rewrite Hh. exact Hin.
  - specialize (IH s1 o). rewrite Hr in IH. destruct (IH Hin) as [c' [H1 H2]]. exists c'. split; [right|]; auto.
Qed.

Lemma in_all_outs sg H o : In o (all_outs sg H) -> exists l, l < n /\ In o (outs_of sg H l).
Proof. unfold all_outs. rewrite in_flat_map. intros [l [Hl Hin]]. apply in_seq in Hl. exists l. split; [lia|auto]. Qed.

Lemma exists_min (l : list C) : l <> [] -> exists m, In m l /\ forall x, In x l -> cle m x.
Proof.
  induction l as [|a t IH]; [congruence|]. intros _. destruct t as [|b t'].
  - exists a. split; [left; auto|]. intros x [<-|[]]. apply cle_refl.
  - destruct IH as [m [Hm Hmin]]; [congruence|].
    destruct (clt_total a m) as [H|[H|H]].
    + exists a. split; [left; auto|]. intros x [<-|Hx]; [apply cle_refl|]. eapply cle_trans; [left; exact H|]. auto.
    + subst. exists m. split; [left; auto|]. intros x [<-|Hx]; [apply cle_refl|auto].
    + exists m. split; [right; auto|]. intros x [<-|Hx]; [left; auto|auto].
Qed.

Definition heads (H : nat -> list C) : list C := flat_map (fun l => firstn 1 (H l)) (seq 0 n).

Lemma in_heads H c : In c (heads H) <-> exists l t, l < n /\ H l = c :: t.
Proof.
  unfold heads. rewrite in_flat_map. split.
  - intros [l [Hl Hc]]. apply in_seq in Hl. destruct (H l) as [|c' t] eqn:E; [contradiction|].
    destruct Hc as [<-|[]]. exists l, t. split; [lia|exact E].
  - intros [l [t [Hl E]]]. exists l. split; [apply in_seq; lia|rewrite E; left; reflexivity].
Qed.

Lemma StronglySorted_head_le (h : C) t c : StronglySorted cle (h :: t) -> In c (h :: t) -> cle h c.
Proof. intros HS [<-|Hin]; [apply cle_refl|]. inversion HS as [|? ? _ Hall]; subst.
  rewrite Forall_forall in Hall. auto. Qed.

(* the least of the histories' heads is below everything in the family; it has no cause inside the
   family, so it is pending *)
Lemma min_head_in_P sg P H :
  closed sg P H -> sortedH H -> (exists l, l < n /\ H l <> []) ->
  exists lm cm tm, lm < n /\ H lm = cm :: tm /\ (forall l c, l < n -> In c (H l) -> cle cm c) /\ In (lm, cm) P.
Proof.
  intros Hcl Hso [l0 [Hl0 Hne]].
  destruct (exists_min (heads H)) as [cm [Hcm Hmin]].
  { destruct (H l0) as [|c t] eqn:El; [congruence|]. intro E.
    assert (Hin : In c (heads H)) by (apply in_heads; eauto). rewrite E in Hin. exact Hin. }
  apply in_heads in Hcm. destruct Hcm as [lm [tm [Hlm Elm]]].
  assert (Hle : forall l c, l < n -> In c (H l) -> cle cm c).
  { intros l c Hl Hc. destruct (H l) as [|h t] eqn:El; [contradiction|].
    eapply cle_trans; [apply Hmin, in_heads; eauto|].
    apply (StronglySorted_head_le h t c); auto. rewrite <- El. auto. }
  exists lm, cm, tm. repeat split; auto.
  assert (Hin : In cm (proj lm (P ++ all_outs sg H))).
  { eapply Permutation_in; [apply (Hcl lm Hlm)|]. rewrite Elm. left; auto. }
  apply in_proj, in_app_or in Hin. destruct Hin as [Hin|Hin]; [exact Hin|]. exfalso.
  apply in_all_outs in Hin. destruct Hin as [l' [Hl' Hin]].
  apply run_out_cause in Hin. destruct Hin as [c' [Hc' [Hlt _]]].
  eapply clt_cle_false; [exact Hlt|]. apply (Hle l' c'); auto.
Qed.

Lemma minimal_is_head sg P H l0 c :
  closed sg P H -> sortedH H -> l0 < n -> minimal (l0, c) P -> exists t0, H l0 = c :: t0.
Proof.
  intros Hcl Hso Hl0 [HinP Hmin].
  assert (Hc : In c (H l0)).
  { eapply Permutation_in; [apply Permutation_sym, (Hcl l0 Hl0)|]. apply in_proj, in_or_app. left; auto. }
  destruct (min_head_in_P sg P H Hcl Hso) as [lm [cm [tm [Hlm [Elm [Hle Hinm]]]]]].
  { exists l0. split; auto. intro E. rewrite E in Hc. contradiction. }
  destruct (Hle l0 c Hl0 Hc) as [Hlt| ->]; [destruct (Hmin (lm, cm) Hinm Hlt)|].
  destruct (H l0) as [|h t0] eqn:El0; [contradiction|]. exists t0. f_equal.
  apply cle_antisym.
  - apply (StronglySorted_head_le h t0 c); auto. rewrite <- El0. auto.
  - apply (Hle l0 h Hl0). rewrite El0. left; auto.
Qed.

Lemma flat_map_upd_perm {A} (f g : nat -> list A) k (o : list A) (ls : list nat) :
  NoDup ls -> In k ls -> f k = o ++ g k -> (forall x, x <> k -> f x = g x) ->
  Permutation (flat_map f ls) (o ++ flat_map g ls).
Proof.
  induction ls as [|a t IH]; intros Hnd Hin Hk Hoth; [contradiction|].
  inversion Hnd as [|? ? Hna Hnd']; subst. simpl. destruct Hin as [->|Hin].
  - rewrite Hk. rewrite <- app_assoc. apply Permutation_app_head. apply Permutation_app_head.
    assert (E : flat_map f t = flat_map g t).
    { clear -Hna Hoth. induction t as [|b t IH]; simpl; auto. rewrite Hoth, IH; auto.
      - intro; apply Hna; right; auto.
      - intros ->. apply Hna; left; auto. }
    rewrite E. apply Permutation_refl.
  - assert (a <> k) by (intros ->; contradiction). rewrite (Hoth a) by auto.
    eapply perm_trans; [apply Permutation_app_head; apply IH; auto|].
    rewrite !app_assoc. apply Permutation_app_tail. apply Permutation_app_comm.
Qed.

Lemma run_cons l s c t s' o : handle l s c = (s', o) -> snd (run l s (c :: t)) = o ++ snd (run l s' t).
Proof. intros Hh. simpl. rewrite Hh. destruct (run l s' t); reflexivity. Qed.

Lemma all_outs_peel sg H l0 c t0 s' o :
  l0 < n -> H l0 = c :: t0 -> handle l0 (sg l0) c = (s', o) ->
  Permutation (all_outs sg H) (o ++ all_outs (upd sg l0 s') (upd H l0 t0)).
Proof.
  intros Hl Hh Hd. unfold all_outs. apply flat_map_upd_perm with (k := l0).
  - apply seq_NoDup.
  - apply in_seq; lia.
  - unfold outs_of. rewrite !upd_same, Hh. apply run_cons; auto.
  - intros x Hx. unfold outs_of. rewrite !upd_other by exact Hx. reflexivity.
Qed.

Lemma closed_peel sg P H l0 c t0 P1 s' o :
  l0 < n -> closed sg P H -> Permutation P ((l0, c) :: P1) -> H l0 = c :: t0 -> handle l0 (sg l0) c = (s', o) ->
  closed (upd sg l0 s') (o ++ P1) (upd H l0 t0).
Proof.
  intros Hl0 Hcl Hperm El0 Hh k Hk. pose proof (Hcl k Hk) as Hp.
  assert (Hall : Permutation (P ++ all_outs sg H) ((l0, c) :: (o ++ P1) ++ all_outs (upd sg l0 s') (upd H l0 t0))).
  { eapply perm_trans; [apply Permutation_app; [exact Hperm|apply (all_outs_peel sg H l0 c t0 s' o); auto]|].
    simpl. apply perm_skip. rewrite <- app_assoc. apply Permutation_app_swap_app. }
  apply (proj_perm k) in Hall. rewrite proj_cons in Hall. simpl in Hall.
  destruct (Nat.eqb_spec l0 k) as [<-|Hne].
  - rewrite upd_same. rewrite El0 in Hp. apply Permutation_cons_inv with c. exact (perm_trans Hp Hall).
  - rewrite upd_other by auto. exact (perm_trans Hp Hall).
Qed.

Theorem closed_sorted_family_unique :
  forall sg P tr, seqrun sg P tr ->
  forall H, closed sg P H -> sortedH H -> dests_ok P ->
  forall l, l < n -> proj l tr = H l.
Proof.
  induction 1 as [sg | sg P e P1 s' o tr Hmin Hperm Hh Hrun IH]; intros H Hcl Hso Hd l Hl.
  - (* nothing pending: every history must be empty *)
    destruct (H l) as [|c t] eqn:El; [reflexivity|]. exfalso.
    destruct (min_head_in_P sg [] H Hcl Hso) as [lm [cm [tm [_ [_ [_ []]]]]]].
    exists l. split; auto. congruence.
  - destruct e as [l0 c]. simpl in *.
    assert (Hl0 : l0 < n) by (apply (Hd (l0, c)), Hmin).
    destruct (minimal_is_head sg P H l0 c Hcl Hso Hl0 Hmin) as [t0 El0].
    rewrite proj_cons. simpl. rewrite (IH (upd H l0 t0)).
    + destruct (Nat.eqb_spec l0 l) as [->|Hne]; [rewrite upd_same, El0|rewrite upd_other by lia]; reflexivity.
    + apply (closed_peel sg P H l0 c t0 P1 s' o); auto.
    + intros k Hk. destruct (Nat.eq_dec k l0) as [->|Hne]; [rewrite upd_same|rewrite upd_other by auto; auto].
      specialize (Hso l0 Hl0). rewrite El0 in Hso. inversion Hso; auto.
    + intros x Hx. apply in_app_or in Hx. destruct Hx as [Hx|Hx].
      * apply (valid l0 (sg l0) c x). rewrite Hh. exact Hx.
      * apply Hd, (Permutation_in _ (Permutation_sym Hperm)). right; auto.
    + exact Hl.
Qed.

End Peel.

(* a run only looks at the LPs its events are addressed to, and at the pending events as a multiset *)
Lemma seqrun_ext C clt St (R : nat -> Prop) (h h' : nat -> St -> C -> St * list (Ev C)) sg sg' P P' tr :
  (forall l s c, R l -> h l s c = h' l s c) -> (forall l s c o, R l -> In o (snd (h l s c)) -> R (fst o)) ->
  (forall l, R l -> sg l = sg' l) -> (forall e, In e P -> R (fst e)) -> Permutation P P' ->
  seqrun C clt St h sg P tr -> seqrun C clt St h' sg' P' tr.
Proof.
  intros Hh Hcl Hsg HP HPP Hrun. revert sg' P' Hsg HP HPP.
  induction Hrun as [sg|sg P e P1 s' o tr [Hin Hmin] Hperm He Hrun IH]; intros sg' P' Hsg HP HPP.
  - apply Permutation_nil in HPP. subst. constructor.
  - assert (Re : R (fst e)) by apply HP, Hin.
    apply seq_cons with P1 s' o.
    + split; [apply (Permutation_in _ HPP Hin)|]. intros y Hy. apply Hmin, (Permutation_in _ (Permutation_sym HPP) Hy).
    + apply (perm_trans (Permutation_sym HPP) Hperm).
    + rewrite <- Hsg, <- Hh by exact Re. exact He.
    + apply IH; [| |apply Permutation_refl].
      * intros l Rl. unfold upd. destruct (Nat.eqb l (fst e)); [reflexivity|apply Hsg, Rl].
      * intros x Hx. apply in_app_or in Hx. destruct Hx as [Hx|Hx].
        -- apply (Hcl (fst e) (sg (fst e)) (snd e)); [exact Re|rewrite He; exact Hx].
        -- apply HP, (Permutation_in _ (Permutation_sym Hperm)). right. exact Hx.
Qed.
Check closed_sorted_family_unique.
