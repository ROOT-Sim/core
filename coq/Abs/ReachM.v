(* Reachability for the micro-step abstract Time Warp machine and the composed theorem:
   in every reachable state, below any valid bound, the per-LP histories are the sequential execution. *)
From Coq Require Import List.
From RS.Abs Require Import Peel Abs Bridge AbsM AbsM2 BridgeM.
Import ListNotations.

Section ReachM.
Variable C : Type.
Variable cltb : C -> C -> bool.
Notation clt := (Abs.clt C cltb).
Hypothesis clt_irrefl : forall a, ~ clt a a.
Hypothesis clt_trans : forall a b c, clt a b -> clt b c -> clt a c.
Hypothesis clt_total : forall a b, clt a b \/ a = b \/ clt b a.
Variable tltb : C -> C -> bool.
Notation tlt := (Abs.tlt C tltb).
Hypothesis tlt_clt : forall a b, tlt a b -> clt a b.
Hypothesis clt_not_tlt : forall a b, clt a b -> ~ tlt b a.
Hypothesis tlt_negtrans : forall a b c, ~ tlt b a -> ~ tlt c b -> ~ tlt c a.
Variable St : Type.
Variable n : nat.
Variable s0 : nat -> St.
Variable handle : nat -> St -> C -> St * list (nat * C).
Hypothesis valid : forall l s c o, In o (snd (handle l s c)) -> clt c (snd o) /\ fst o < n.
Variable init : list (msg C).
Hypothesis init_dest : forall m, In m init -> mdest C m < n.
Hypothesis init_nodup : NoDup (map (mid C) init).
Variable below : C -> bool.
Hypothesis below_tdown : forall a b, ~ tlt b a -> below b = true -> below a = true.

Notation absm := (absm C).
Notation step := (AbsM.step C cltb tltb St n s0 handle).
Notation Inv := (AbsM.Inv C n init).
Notation InvK := (AbsM.InvK C n).
Notation Inv2 := (AbsM2.Inv2 C cltb tltb St n s0 handle).

Definition a0 (N : nat) : absm :=
  {| AbsM.hist := fun _ => []; undoing := fun _ => []; cur := fun _ => []; kill := fun _ => [];
     AbsM.pool := init; AbsM.antis := []; AbsM.nid := N |}.

Inductive reach (N : nat) : absm -> Prop :=
| r0 : reach N (a0 N)
| rs : forall a a', reach N a -> step a a' -> reach N a'.

Lemma inv_a0 N : (forall m, In m init -> mid C m < N) -> Inv (a0 N) /\ InvK (a0 N) /\ Inv2 (a0 N).
Proof.
  intros HN. split; [|split].
  - assert (Ep : AbsM.placed C n (a0 N) = init).
    { unfold AbsM.placed, AbsM.over. simpl. rewrite !(flat_map_nil (seq 0 n)). rewrite !app_nil_r. reflexivity. }
    assert (Es : AbsM.sent C n init (a0 N) = init).
    { unfold AbsM.sent, AbsM.over. simpl. rewrite !(flat_map_nil (seq 0 n)). rewrite !app_nil_r. reflexivity. }
    constructor; rewrite ?Ep, ?Es; simpl; auto.
    + constructor.
    + apply incl_refl.
    + intros i [].
  - intros l i []. 
  - constructor; intros l; [auto|apply each_nil..|intros m []].
Qed.

Theorem reach_inv N : (forall m, In m init -> mid C m < N) -> forall a, reach N a -> Inv a /\ InvK a /\ Inv2 a.
Proof.
  intros HN a R. induction R as [|a a' R (I & K & J) S].
  - apply inv_a0; auto.
  - destruct (AbsM.step_inv C cltb tltb St n s0 handle init a a' I K S) as [I' K'].
    split; [exact I'|split; [exact K'|]].
    apply (AbsM2.step_inv2 C cltb clt_trans clt_total tltb tlt_clt tlt_negtrans St n s0 handle init a a' I J S).
Qed.

(* The capstone for the micro-step machine: every schedule of takes, marks, re-pools, annihilations,
   appends, drops and cancellations; any bound that is valid in the reached state. *)
Theorem time_warp_m_below_gvt_is_sequential N a :
  (forall m, In m init -> mid C m < N) -> reach N a ->
  BridgeM.gvt_ok C below a ->
  forall tr, Peel.seqrun C clt St (Bridge.handle_g C St handle below) s0 (Bridge.Pg C init below) tr ->
  forall l, l < n -> Peel.proj C l tr = BridgeM.Hg C below a l.
Proof.
  intros HN R G tr Hrun l Hl. destruct (reach_inv N HN a R) as (I & _ & J).
  eapply (BridgeM.below_gvt_is_sequential_m C cltb clt_irrefl clt_trans clt_total tltb clt_not_tlt
            St n s0 handle valid init init_dest below below_tdown a I J G tr Hrun l Hl).
Qed.
End ReachM.
