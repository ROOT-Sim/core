(* C20 (format): decode (encode f) = f, consuming exactly the encoding. *)
From Coq Require Import NArith List Bool Lia.
From RS Require Import Stats.StatsFormat.
Import ListNotations.
Local Open Scope N_scope.

Definition W : N := 18446744073709551616.

Lemma p_le_bytes n : forall x r, x < 256 ^ N.of_nat n -> p_le n (le_bytes n x ++ r) = Some (x, r).
Proof.
  induction n as [|k IH]; intros x r Hx.
  - cbn in *. assert (x = 0) by lia. subst. reflexivity.
  - cbn [le_bytes p_le app]. rewrite Nat2N.inj_succ, N.pow_succ_r' in Hx.
    rewrite IH by (apply N.div_lt_upper_bound; lia).
    f_equal. f_equal. pose proof (N.div_mod x 256 ltac:(lia)). lia.
Qed.

Lemma p_u64_le64 x r : x < W -> p_u64 (le64 x ++ r) = Some (x, r).
Proof. exact (p_le_bytes 8 x r). Qed.

Lemma p_take_app l : forall r, p_take (length l) (l ++ r) = Some (l, r).
Proof. induction l as [|b l IH]; intros r; cbn; [reflexivity|]. rewrite IH. reflexivity. Qed.

(* Every layer of the format is a counted repetition of the layer below: a parser that inverts an encoder on
   the items satisfying P inverts the concatenated encodings of a list of such items. *)
Lemma p_rep_concat {A} (enc : A -> list N) (p : parser A) (P : A -> Prop) :
  (forall x r, P x -> p (enc x ++ r) = Some (x, r)) ->
  forall xs r, Forall P xs -> p_rep (length xs) p (concat (map enc xs) ++ r) = Some (xs, r).
Proof.
  intros Hp xs r H. induction H as [|x xs Hx _ IH]; cbn; [reflexivity|].
  rewrite <- app_assoc, (Hp x _ Hx), IH. reflexivity.
Qed.

(* a byte size written as k * count passes the divisibility test and gives back the count *)
Lemma count_of_size k n : 0 < k -> (k * N.of_nat n) mod k = 0 /\ N.to_nat (k * N.of_nat n / k) = n.
Proof. intros H. rewrite N.mul_comm, N.mod_mul, N.div_mul, Nat2N.id by lia. split; reflexivity. Qed.

Definition wf_name (nm : list N) : Prop := (length nm < 256)%nat.
Definition wf_rec (metrics : N) (r : list N) : Prop := N.of_nat (length r) = metrics /\ Forall (fun x => x < W) r.
Definition wf_thread (metrics : N) (recs : list (list N)) : Prop :=
  Forall (wf_rec metrics) recs /\ 8 * metrics * N.of_nat (length recs) < W.
Definition wf_node (metrics : N) (nd : node) : Prop :=
  length (n_glob nd) = 9%nat /\ Forall (fun x => x < W) (n_glob nd) /\
  hd 0 (n_glob nd) = N.of_nat (length (n_threads nd)) /\
  Forall (fun r => fst r < W /\ snd r < W) (n_recs nd) /\ 16 * N.of_nat (length (n_recs nd)) < W /\
  Forall (wf_thread metrics) (n_threads nd).
Definition wf_file (f : sfile) : Prop :=
  0 < N.of_nat (length (f_names f)) /\ N.of_nat (length (f_names f)) < W /\ Forall wf_name (f_names f) /\
  N.of_nat (length (f_nodes f)) < W /\ Forall (wf_node (N.of_nat (length (f_names f)))) (f_nodes f).

Lemma p_name_enc nm r : wf_name nm -> p_name (enc_name nm ++ r) = Some (nm, r).
Proof. intros _. unfold p_name, enc_name. cbn [app]. rewrite Nat2N.id. apply p_take_app. Qed.

Lemma p_rec_enc metrics rcd r : wf_rec metrics rcd ->
  p_rep (N.to_nat metrics) p_u64 (enc_rec rcd ++ r) = Some (rcd, r).
Proof. intros [<- Hall]. rewrite Nat2N.id. apply (p_rep_concat _ _ _ p_u64_le64), Hall. Qed.

Lemma p_thread_enc metrics : 0 < metrics -> forall recs r, wf_thread metrics recs ->
  p_thread metrics (enc_thread metrics recs ++ r) = Some (recs, r).
Proof.
  intros Hm recs r [Hall Hsz]. unfold p_thread, enc_thread. rewrite <- app_assoc, p_u64_le64 by exact Hsz.
  destruct (N.eqb_spec metrics 0); [lia|].
  destruct (count_of_size (8 * metrics) (length recs)) as [-> ->]; [lia|]. cbn [N.eqb negb].
  apply (p_rep_concat _ _ _ (p_rec_enc metrics)), Hall.
Qed.

Lemma p_noderec_enc x r : fst x < W /\ snd x < W -> p_noderec (enc_noderec x ++ r) = Some (x, r).
Proof.
  intros [H1 H2]. unfold p_noderec, enc_noderec. rewrite <- app_assoc, !p_u64_le64 by assumption.
  destruct x; reflexivity.
Qed.

Lemma p_node_enc metrics : 0 < metrics -> forall nd r, wf_node metrics nd ->
  p_node metrics (enc_node metrics nd ++ r) = Some (nd, r).
Proof.
  intros Hm nd r (Hg9 & Hg & Hhd & Hrecs & Hsz & Hth). unfold p_node, enc_node.
  rewrite <- !app_assoc, <- Hg9.
  rewrite (p_rep_concat _ _ _ p_u64_le64 _ _ Hg), p_u64_le64 by exact Hsz.
  destruct (count_of_size 16 (length (n_recs nd))) as [-> ->]; [lia|]. cbn [N.eqb negb].
  rewrite (p_rep_concat _ _ _ p_noderec_enc _ _ Hrecs), Hhd, Nat2N.id.
  rewrite (p_rep_concat _ _ _ (p_thread_enc metrics Hm) _ _ Hth).
  destruct nd; reflexivity.
Qed.

Theorem decode_encode f rest : wf_file f -> decode (encode f ++ rest) = Some (f, rest).
Proof.
  intros (Hm & Hn & Hnames & Hnn & Hnodes). unfold decode, encode. cbn [app].
  rewrite <- !app_assoc.
  rewrite p_u64_le64, Nat2N.id by exact Hn.
  rewrite (p_rep_concat _ _ _ p_name_enc _ _ Hnames).
  rewrite p_u64_le64, Nat2N.id by exact Hnn.
  rewrite (p_rep_concat _ _ _ (p_node_enc _ Hm) _ _ Hnodes).
  destruct f; reflexivity.
Qed.

Corollary decode_encode_whole f : wf_file f -> decode (encode f) = Some (f, []).
Proof. intros H. rewrite <- (app_nil_r (encode f)). apply decode_encode. exact H. Qed.

(* non-vacuity: a small file round-trips *)
Definition ex_file : sfile :=
  mkFile [[112;114]; [114]] [mkNode [1;5;0;1;2;3;4;5;6] [(4607182418800017408, 77)] [[[3;0]]]].
Example ex_file_wf_roundtrip : decode (encode ex_file) = Some (ex_file, []) /\ record_counts_equal ex_file = true.
Proof. vm_compute. split; reflexivity. Qed.
